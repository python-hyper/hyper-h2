(* The state / input / side-effect alphabets of the two state machines, written by hand: translator/reflect.py fails
   closed if the enums of the code differ or its tables use a side-effect function that is not an [effect]. *)
From H2 Require Import Base.Prelude.

Inductive cstate := C_IDLE | C_CLIENT_OPEN | C_SERVER_OPEN | C_CLOSED.
Definition cstate_eqb (a b : cstate) : bool :=
  match a, b with
  | C_IDLE, C_IDLE
  | C_CLIENT_OPEN, C_CLIENT_OPEN
  | C_SERVER_OPEN, C_SERVER_OPEN
  | C_CLOSED, C_CLOSED => true
  | _, _ => false
  end.
Lemma cstate_eqb_eq a b : cstate_eqb a b = true <-> a = b.
Proof. apply eqb_eq_of; repeat intros []; first [exact I | exact eq_refl]. Qed.

Definition all_cstate : list cstate := [C_IDLE; C_CLIENT_OPEN; C_SERVER_OPEN; C_CLOSED].
Lemma all_cstate_complete x : In x all_cstate.
Proof. apply (in_of_existsb _ _ _ cstate_eqb_eq). intros []; reflexivity. Qed.

Inductive cinput := CI_SEND_HEADERS | CI_SEND_PUSH_PROMISE | CI_SEND_DATA | CI_SEND_GOAWAY | CI_SEND_WINDOW_UPDATE | CI_SEND_PING | CI_SEND_SETTINGS | CI_SEND_RST_STREAM | CI_SEND_PRIORITY | CI_RECV_HEADERS | CI_RECV_PUSH_PROMISE | CI_RECV_DATA | CI_RECV_GOAWAY | CI_RECV_WINDOW_UPDATE | CI_RECV_PING | CI_RECV_SETTINGS | CI_RECV_RST_STREAM | CI_RECV_PRIORITY | CI_SEND_ALTERNATIVE_SERVICE | CI_RECV_ALTERNATIVE_SERVICE.
Definition cinput_eqb (a b : cinput) : bool :=
  match a, b with
  | CI_SEND_HEADERS, CI_SEND_HEADERS
  | CI_SEND_PUSH_PROMISE, CI_SEND_PUSH_PROMISE
  | CI_SEND_DATA, CI_SEND_DATA
  | CI_SEND_GOAWAY, CI_SEND_GOAWAY
  | CI_SEND_WINDOW_UPDATE, CI_SEND_WINDOW_UPDATE
  | CI_SEND_PING, CI_SEND_PING
  | CI_SEND_SETTINGS, CI_SEND_SETTINGS
  | CI_SEND_RST_STREAM, CI_SEND_RST_STREAM
  | CI_SEND_PRIORITY, CI_SEND_PRIORITY
  | CI_RECV_HEADERS, CI_RECV_HEADERS
  | CI_RECV_PUSH_PROMISE, CI_RECV_PUSH_PROMISE
  | CI_RECV_DATA, CI_RECV_DATA
  | CI_RECV_GOAWAY, CI_RECV_GOAWAY
  | CI_RECV_WINDOW_UPDATE, CI_RECV_WINDOW_UPDATE
  | CI_RECV_PING, CI_RECV_PING
  | CI_RECV_SETTINGS, CI_RECV_SETTINGS
  | CI_RECV_RST_STREAM, CI_RECV_RST_STREAM
  | CI_RECV_PRIORITY, CI_RECV_PRIORITY
  | CI_SEND_ALTERNATIVE_SERVICE, CI_SEND_ALTERNATIVE_SERVICE
  | CI_RECV_ALTERNATIVE_SERVICE, CI_RECV_ALTERNATIVE_SERVICE => true
  | _, _ => false
  end.
Lemma cinput_eqb_eq a b : cinput_eqb a b = true <-> a = b.
Proof. apply eqb_eq_of; repeat intros []; first [exact I | exact eq_refl]. Qed.

Definition all_cinput : list cinput := [CI_SEND_HEADERS; CI_SEND_PUSH_PROMISE; CI_SEND_DATA; CI_SEND_GOAWAY; CI_SEND_WINDOW_UPDATE; CI_SEND_PING; CI_SEND_SETTINGS; CI_SEND_RST_STREAM; CI_SEND_PRIORITY; CI_RECV_HEADERS; CI_RECV_PUSH_PROMISE; CI_RECV_DATA; CI_RECV_GOAWAY; CI_RECV_WINDOW_UPDATE; CI_RECV_PING; CI_RECV_SETTINGS; CI_RECV_RST_STREAM; CI_RECV_PRIORITY; CI_SEND_ALTERNATIVE_SERVICE; CI_RECV_ALTERNATIVE_SERVICE].
Lemma all_cinput_complete x : In x all_cinput.
Proof. apply (in_of_existsb _ _ _ cinput_eqb_eq). intros []; reflexivity. Qed.

Inductive sstate := S_IDLE | S_RESERVED_REMOTE | S_RESERVED_LOCAL | S_OPEN | S_HALF_CLOSED_REMOTE | S_HALF_CLOSED_LOCAL | S_CLOSED.
Definition sstate_eqb (a b : sstate) : bool :=
  match a, b with
  | S_IDLE, S_IDLE
  | S_RESERVED_REMOTE, S_RESERVED_REMOTE
  | S_RESERVED_LOCAL, S_RESERVED_LOCAL
  | S_OPEN, S_OPEN
  | S_HALF_CLOSED_REMOTE, S_HALF_CLOSED_REMOTE
  | S_HALF_CLOSED_LOCAL, S_HALF_CLOSED_LOCAL
  | S_CLOSED, S_CLOSED => true
  | _, _ => false
  end.
Lemma sstate_eqb_eq a b : sstate_eqb a b = true <-> a = b.
Proof. apply eqb_eq_of; repeat intros []; first [exact I | exact eq_refl]. Qed.

Definition all_sstate : list sstate := [S_IDLE; S_RESERVED_REMOTE; S_RESERVED_LOCAL; S_OPEN; S_HALF_CLOSED_REMOTE; S_HALF_CLOSED_LOCAL; S_CLOSED].
Lemma all_sstate_complete x : In x all_sstate.
Proof. apply (in_of_existsb _ _ _ sstate_eqb_eq). intros []; reflexivity. Qed.

Inductive sinput := SI_SEND_HEADERS | SI_SEND_PUSH_PROMISE | SI_SEND_RST_STREAM | SI_SEND_DATA | SI_SEND_WINDOW_UPDATE | SI_SEND_END_STREAM | SI_RECV_HEADERS | SI_RECV_PUSH_PROMISE | SI_RECV_RST_STREAM | SI_RECV_DATA | SI_RECV_WINDOW_UPDATE | SI_RECV_END_STREAM | SI_RECV_CONTINUATION | SI_SEND_INFORMATIONAL_HEADERS | SI_RECV_INFORMATIONAL_HEADERS | SI_SEND_ALTERNATIVE_SERVICE | SI_RECV_ALTERNATIVE_SERVICE | SI_UPGRADE_CLIENT | SI_UPGRADE_SERVER.
Definition sinput_eqb (a b : sinput) : bool :=
  match a, b with
  | SI_SEND_HEADERS, SI_SEND_HEADERS
  | SI_SEND_PUSH_PROMISE, SI_SEND_PUSH_PROMISE
  | SI_SEND_RST_STREAM, SI_SEND_RST_STREAM
  | SI_SEND_DATA, SI_SEND_DATA
  | SI_SEND_WINDOW_UPDATE, SI_SEND_WINDOW_UPDATE
  | SI_SEND_END_STREAM, SI_SEND_END_STREAM
  | SI_RECV_HEADERS, SI_RECV_HEADERS
  | SI_RECV_PUSH_PROMISE, SI_RECV_PUSH_PROMISE
  | SI_RECV_RST_STREAM, SI_RECV_RST_STREAM
  | SI_RECV_DATA, SI_RECV_DATA
  | SI_RECV_WINDOW_UPDATE, SI_RECV_WINDOW_UPDATE
  | SI_RECV_END_STREAM, SI_RECV_END_STREAM
  | SI_RECV_CONTINUATION, SI_RECV_CONTINUATION
  | SI_SEND_INFORMATIONAL_HEADERS, SI_SEND_INFORMATIONAL_HEADERS
  | SI_RECV_INFORMATIONAL_HEADERS, SI_RECV_INFORMATIONAL_HEADERS
  | SI_SEND_ALTERNATIVE_SERVICE, SI_SEND_ALTERNATIVE_SERVICE
  | SI_RECV_ALTERNATIVE_SERVICE, SI_RECV_ALTERNATIVE_SERVICE
  | SI_UPGRADE_CLIENT, SI_UPGRADE_CLIENT
  | SI_UPGRADE_SERVER, SI_UPGRADE_SERVER => true
  | _, _ => false
  end.
Lemma sinput_eqb_eq a b : sinput_eqb a b = true <-> a = b.
Proof. apply eqb_eq_of; repeat intros []; first [exact I | exact eq_refl]. Qed.

Definition all_sinput : list sinput := [SI_SEND_HEADERS; SI_SEND_PUSH_PROMISE; SI_SEND_RST_STREAM; SI_SEND_DATA; SI_SEND_WINDOW_UPDATE; SI_SEND_END_STREAM; SI_RECV_HEADERS; SI_RECV_PUSH_PROMISE; SI_RECV_RST_STREAM; SI_RECV_DATA; SI_RECV_WINDOW_UPDATE; SI_RECV_END_STREAM; SI_RECV_CONTINUATION; SI_SEND_INFORMATIONAL_HEADERS; SI_RECV_INFORMATIONAL_HEADERS; SI_SEND_ALTERNATIVE_SERVICE; SI_RECV_ALTERNATIVE_SERVICE; SI_UPGRADE_CLIENT; SI_UPGRADE_SERVER].
Lemma all_sinput_complete x : In x all_sinput.
Proof. apply (in_of_existsb _ _ _ sinput_eqb_eq). intros []; reflexivity. Qed.

Inductive effect := E_none | E_request_sent | E_response_sent | E_request_received | E_response_received | E_data_received | E_window_updated | E_stream_half_closed | E_stream_ended | E_stream_reset | E_send_new_pushed_stream | E_recv_new_pushed_stream | E_send_push_promise | E_recv_push_promise | E_send_end_stream | E_send_reset_stream | E_reset_stream_on_error | E_recv_on_closed_stream | E_send_on_closed_stream | E_recv_push_on_closed_stream | E_send_push_on_closed_stream | E_send_informational_response | E_recv_informational_response | E_recv_alt_svc | E_send_alt_svc.
Definition effect_eqb (a b : effect) : bool :=
  match a, b with
  | E_none, E_none
  | E_request_sent, E_request_sent
  | E_response_sent, E_response_sent
  | E_request_received, E_request_received
  | E_response_received, E_response_received
  | E_data_received, E_data_received
  | E_window_updated, E_window_updated
  | E_stream_half_closed, E_stream_half_closed
  | E_stream_ended, E_stream_ended
  | E_stream_reset, E_stream_reset
  | E_send_new_pushed_stream, E_send_new_pushed_stream
  | E_recv_new_pushed_stream, E_recv_new_pushed_stream
  | E_send_push_promise, E_send_push_promise
  | E_recv_push_promise, E_recv_push_promise
  | E_send_end_stream, E_send_end_stream
  | E_send_reset_stream, E_send_reset_stream
  | E_reset_stream_on_error, E_reset_stream_on_error
  | E_recv_on_closed_stream, E_recv_on_closed_stream
  | E_send_on_closed_stream, E_send_on_closed_stream
  | E_recv_push_on_closed_stream, E_recv_push_on_closed_stream
  | E_send_push_on_closed_stream, E_send_push_on_closed_stream
  | E_send_informational_response, E_send_informational_response
  | E_recv_informational_response, E_recv_informational_response
  | E_recv_alt_svc, E_recv_alt_svc
  | E_send_alt_svc, E_send_alt_svc => true
  | _, _ => false
  end.
Lemma effect_eqb_eq a b : effect_eqb a b = true <-> a = b.
Proof. apply eqb_eq_of; repeat intros []; first [exact I | exact eq_refl]. Qed.

Definition all_effect : list effect := [E_none; E_request_sent; E_response_sent; E_request_received; E_response_received; E_data_received; E_window_updated; E_stream_half_closed; E_stream_ended; E_stream_reset; E_send_new_pushed_stream; E_recv_new_pushed_stream; E_send_push_promise; E_recv_push_promise; E_send_end_stream; E_send_reset_stream; E_reset_stream_on_error; E_recv_on_closed_stream; E_send_on_closed_stream; E_recv_push_on_closed_stream; E_send_push_on_closed_stream; E_send_informational_response; E_recv_informational_response; E_recv_alt_svc; E_send_alt_svc].
Lemma all_effect_complete x : In x all_effect.
Proof. apply (in_of_existsb _ _ _ effect_eqb_eq). intros []; reflexivity. Qed.

Inductive closedby := CB_SEND_END_STREAM | CB_RECV_END_STREAM | CB_SEND_RST_STREAM | CB_RECV_RST_STREAM.
Definition closedby_eqb (a b : closedby) : bool :=
  match a, b with
  | CB_SEND_END_STREAM, CB_SEND_END_STREAM
  | CB_RECV_END_STREAM, CB_RECV_END_STREAM
  | CB_SEND_RST_STREAM, CB_SEND_RST_STREAM
  | CB_RECV_RST_STREAM, CB_RECV_RST_STREAM => true
  | _, _ => false
  end.
Lemma closedby_eqb_eq a b : closedby_eqb a b = true <-> a = b.
Proof. apply eqb_eq_of; repeat intros []; first [exact I | exact eq_refl]. Qed.

Definition all_closedby : list closedby := [CB_SEND_END_STREAM; CB_RECV_END_STREAM; CB_SEND_RST_STREAM; CB_RECV_RST_STREAM].
Lemma all_closedby_complete x : In x all_closedby.
Proof. apply (in_of_existsb _ _ _ closedby_eqb_eq). intros []; reflexivity. Qed.
