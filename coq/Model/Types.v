From H2 Require Import Base.Prelude.

Definition bytes := list Z.                       (* each element 0..255 *)
Definition header := (bytes * bytes)%type.        (* name, value *)
(* a header as handed to the HPACK encoder / received from the decoder: never-indexed flag *)
Definition hitem := (bytes * bytes * bool)%type.

Fixpoint bytes_eqb (a b : bytes) : bool :=
  match a, b with
  | [], [] => true
  | x :: a', y :: b' => (x =? y) && bytes_eqb a' b'
  | _, _ => false
  end.

Lemma bytes_eqb_eq a b : bytes_eqb a b = true <-> a = b.
Proof.
  revert b. induction a as [|x a IH]; intros [|y b]; cbn [bytes_eqb]; try (split; (reflexivity || discriminate)).
  rewrite andb_true_iff, Z.eqb_eq, IH. split; [intros [-> ->]; reflexivity | intros [= -> ->]; split; reflexivity].
Qed.

Definition zlen {A} (l : list A) : Z := Z.of_nat (length l).

Record config := mkconfig {
  cfg_client : bool;
  cfg_validate_out : bool;
  cfg_normalize_out : bool;
  cfg_validate_in : bool;
  cfg_normalize_in : bool;
  cfg_header_encoding : bool       (* a text encoding (utf-8) is configured *)
}.

(* priority fields as carried on the wire: depends_on, weight byte (0..255), exclusive *)
Definition prio := (Z * Z * bool)%type.

(* frames in the output buffer.  Header blocks carry the list given to the encoder and the length
   of the chunk of the encoded block in this frame. *)
Inductive frame :=
| FHeaders (sid : Z) (end_stream end_headers : bool) (p : option prio) (hs : list hitem) (chunk : Z)
| FContinuation (sid : Z) (end_headers : bool) (chunk : Z)
| FPushPromise (sid promised : Z) (end_headers : bool) (hs : list hitem) (chunk : Z)
| FData (sid len : Z) (end_stream : bool) (pad : option Z)
| FSettings (ack : bool) (vals : list (Z * Z))
| FWindowUpdate (sid inc : Z)
| FPing (ack : bool) (payload : bytes)
| FRstStream (sid code : Z)
| FPriority (sid : Z) (p : prio)
| FGoAway (last code dbg : Z)                       (* dbg: length of the additional data *)
| FAltSvc (sid : Z) (origin field : bytes).

(* received frames, after FrameBuffer: HEADERS/PUSH_PROMISE + CONTINUATIONs already merged.
   [hdec]: what the HPACK decoder makes of the block. *)
Inductive hdec := HDecoded (hs : list hitem) | HDecodeError.

Inductive rframe :=
| RHeaders (sid : Z) (end_stream : bool) (p : option prio) (d : hdec)
| RPushPromise (sid promised : Z) (d : hdec)
| RData (sid len fclen : Z) (end_stream : bool)      (* payload length, flow-controlled length *)
| RSettings (ack : bool) (vals : list (Z * Z))
| RWindowUpdate (sid inc : Z)
| RPing (ack : bool) (payload : bytes)
| RRstStream (sid code : Z)
| RPriority (sid : Z) (p : prio)
| RGoAway (last code dbg : Z)
| RContinuation (sid : Z)
| RAltSvc (sid : Z) (origin field : bytes)
| RUnknown (ftype sid : Z)
(* frames FrameBuffer itself rejects: body longer than the limit / unparsable *)
| RTooLarge
| RBadBody (kind : Z).   (* 0 InvalidDataError -> ProtocolError, 1 InvalidFrameError -> FrameDataMissingError, 2 InvalidPaddingError *)

(* events; related-event fields are offsets (>= 1) to a later event of the same returned list *)
Inductive event :=
| ERequestReceived (sid : Z) (hs : list hitem) (ended prio_upd : option Z)
| EResponseReceived (sid : Z) (hs : list hitem) (ended prio_upd : option Z)
| ETrailersReceived (sid : Z) (hs : list hitem) (ended prio_upd : option Z)
| EInformationalResponseReceived (sid : Z) (hs : list hitem) (prio_upd : option Z)
| EDataReceived (sid len fclen : Z) (ended : option Z)
| EWindowUpdated (sid delta : Z)
| ERemoteSettingsChanged (ch : list (Z * option Z * Z))
| EPingReceived (payload : bytes)
| EPingAckReceived (payload : bytes)
| EStreamEnded (sid : Z)
| EStreamReset (sid code : Z) (remote : bool)
| EPushedStreamReceived (pushed parent : Z) (hs : list hitem)
| ESettingsAcknowledged (ch : list (Z * option Z * Z))
| EPriorityUpdated (sid weight dep : Z) (excl : bool)
| EConnectionTerminated (code last dbg : Z)
| EAltSvcAvailable (origin : option bytes) (field : bytes)
| EUnknownFrameReceived (ftype : Z).

(* an exception does not roll the state back: the state reached at the raise point is returned on every path *)
Definition M (S A : Type) := S -> S * res A.
Definition ret {S A} (a : A) : M S A := fun s => (s, Ok a).
Definition fail {S A} (e : h2exn) (code sid : Z) (rst : bool) : M S A := fun s => (s, Err e code sid rst).
Definition crash {S A} (p : pyexn) : M S A := fun s => (s, Crash p).
Definition bind {S A B} (m : M S A) (k : A -> M S B) : M S B :=
  fun s => let '(s1, r) := m s in
           match r with
           | Ok a => k a s1
           | Err e c i b => (s1, Err e c i b)
           | Crash p => (s1, Crash p)
           end.
Definition get {S} : M S S := fun s => (s, Ok s).
Definition put {S} (s' : S) : M S unit := fun _ => (s', Ok tt).
Definition modify {S} (f : S -> S) : M S unit := fun s => (f s, Ok tt).
Definition lift_res {S A} (r : res A) : M S A := fun s => (s, r).

Declare Scope monad_scope.
Notation "x <- m ;; k" := (bind m (fun x => k)) (at level 61, m at next level, right associativity) : monad_scope.
Notation "m ;;; k" := (bind m (fun _ => k)) (at level 61, right associativity) : monad_scope.
Open Scope monad_scope.

Definition when {S} (b : bool) (m : M S unit) : M S unit := if b then m else ret tt.
