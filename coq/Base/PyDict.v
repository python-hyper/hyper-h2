(* Insertion-ordered dictionary with Python dict semantics, keys in Z. *)
From H2 Require Import Base.Prelude.

Section Dict.
Context {V : Type}.
Definition dict := list (Z * V).

Fixpoint dget (k : Z) (d : dict) : option V :=
  match d with [] => None | (k', v) :: r => if k =? k' then Some v else dget k r end.

(* d[k] = v : keeps the position of an existing key, appends a new one *)
Fixpoint dset (k : Z) (v : V) (d : dict) : dict :=
  match d with
  | [] => [(k, v)]
  | (k', v') :: r => if k =? k' then (k, v) :: r else (k', v') :: dset k v r
  end.

Fixpoint ddel (k : Z) (d : dict) : dict :=
  match d with [] => [] | (k', v) :: r => if k =? k' then r else (k', v) :: ddel k r end.

Definition dmem (k : Z) (d : dict) : bool := match dget k d with Some _ => true | None => false end.
Definition dkeys (d : dict) : list Z := map fst d.
Definition dmapv (f : V -> V) (d : dict) : dict := map (fun kv => (fst kv, f (snd kv))) d.

(* OrderedDict.popitem(last=False) repeated while len > limit *)
Fixpoint drop_oldest (n : nat) (d : dict) : dict :=
  match n with O => d | S n' => drop_oldest n' (tl d) end.

Lemma dget_dset k k' v d : dget k' (dset k v d) = if k' =? k then Some v else dget k' d.
Proof.
  induction d as [|[k2 v2] r IH]; cbn [dset dget]; [reflexivity|].
  destruct (k =? k2) eqn:E; cbn [dget].
  - apply Z.eqb_eq in E. subst k2. destruct (k' =? k); reflexivity.
  - rewrite IH. destruct (k' =? k2) eqn:E2; [|reflexivity]. destruct (k' =? k) eqn:E1; [lia | reflexivity].
Qed.

Lemma dget_dset_same k v d : dget k (dset k v d) = Some v.
Proof. rewrite dget_dset, Z.eqb_refl. reflexivity. Qed.

Lemma dget_dset_other k k' v d : k <> k' -> dget k' (dset k v d) = dget k' d.
Proof. intros N. rewrite dget_dset. destruct (k' =? k) eqn:E; [lia | reflexivity]. Qed.

Lemma dget_dmapv f k d : dget k (dmapv f d) = option_map f (dget k d).
Proof.
  induction d as [|[k' v'] r IH]; cbn [dmapv map dget fst snd]; [reflexivity|].
  destruct (k =? k'); [reflexivity|exact IH].
Qed.

Lemma length_dset_le k v d : (length (dset k v d) <= S (length d))%nat.
Proof.
  induction d as [|[k' v'] r IH]; cbn [dset length]; [lia|].
  destruct (k =? k'); cbn [length]; lia.
Qed.

Lemma length_drop_oldest n d : length (drop_oldest n d) = (length d - n)%nat.
Proof.
  revert d. induction n as [|n IH]; intros d; cbn [drop_oldest]; [lia|].
  rewrite IH. destruct d; cbn [tl length]; lia.
Qed.
Lemma dget_In k d v : dget k d = Some v -> In (k, v) d.
Proof.
  induction d as [|[k0 v0] d IH]; cbn [dget]; [discriminate|]. destruct (k =? k0) eqn:E; [|right; auto].
  intros [= <-]. apply Z.eqb_eq in E. subst. left. reflexivity.
Qed.

Lemma In_dset k v d k' v' : In (k', v') (dset k v d) -> (k' = k /\ v' = v) \/ In (k', v') d.
Proof.
  induction d as [|[k0 v0] d IH]; cbn [dset]; [intros [[= <- <-]|[]]; auto|].
  destruct (k =? k0); intros [H|H].
  - injection H as <- <-. auto.
  - right. right. exact H.
  - right. left. exact H.
  - destruct (IH H); [left | right; right]; assumption.
Qed.

Lemma dget_filter_none (f : Z * V -> bool) k d : dget k d = None -> dget k (filter f d) = None.
Proof.
  induction d as [|[k' v] d IH]; cbn [dget filter]; [reflexivity|]. intros H.
  destruct (k =? k') eqn:E; [discriminate|]. destruct (f (k', v)); [cbn [dget]; rewrite E|]; exact (IH H).
Qed.

Lemma dkeys_dset_new k v d : dget k d = None -> dkeys (dset k v d) = dkeys d ++ [k].
Proof.
  unfold dkeys. induction d as [|[k0 v0] d IH]; cbn [dget dset map fst app]; [reflexivity|].
  destruct (k =? k0); [discriminate|]. intros H. cbn [map fst]. rewrite (IH H). reflexivity.
Qed.
Lemma map_dset_same {B} (g : Z * V -> B) k v v' d : dget k d = Some v -> g (k, v') = g (k, v) -> map g (dset k v' d) = map g d.
Proof.
  intros H Hg. induction d as [|[k0 v0] d IH]; cbn [dget dset map] in *; [discriminate|].
  destruct (k =? k0) eqn:E; cbn [map]; [|rewrite (IH H); reflexivity].
  injection H as ->. apply Z.eqb_eq in E. subst k0. rewrite Hg. reflexivity.
Qed.
Lemma dkeys_dset_known k v d : dget k d <> None -> dkeys (dset k v d) = dkeys d.
Proof. intros H. destruct (dget k d) as [v0|] eqn:E; [exact (map_dset_same fst k v0 v d E eq_refl) | contradiction]. Qed.
End Dict.
Arguments dict V : clear implicits.
