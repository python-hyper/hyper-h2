From Coq Require Export ZArith List Bool Lia ZifyBool.
Export ListNotations.
Open Scope Z_scope.

(* h2 exception classes (src/h2/exceptions.py). *)
Inductive h2exn :=
| ProtocolError | FrameTooLargeError | FrameDataMissingError | TooManyStreamsError
| FlowControlError | StreamIDTooLowError | NoAvailableStreamIDError | NoSuchStreamError
| StreamClosedError | InvalidSettingsValueError | InvalidBodyLengthError
| UnsupportedFrameError | DenialOfServiceError | RFC1122Error.

(* Non-h2 exceptions a partial Python primitive can raise. *)
Inductive pyexn :=
| ValueError | TypeError | KeyError | IndexError | AssertionError
| UnicodeDecodeError | ForeignError (* an exception class of hyperframe / binascii / struct *).

(* Outcome of a call.  [Err e code sid rst]: an h2 exception of class [e] whose
   [error_code] attribute is [code]; [sid] is its [stream_id] attribute where the
   class has one (0 otherwise); [rst] says that a StreamClosedError carries the
   single StreamReset event of [reset_stream_on_error] in [_events]. *)
Inductive res (A : Type) :=
| Ok (a : A)
| Err (e : h2exn) (code : Z) (sid : Z) (rst : bool)
| Crash (e : pyexn).
Arguments Ok {A} a.
Arguments Err {A} e code sid rst.
Arguments Crash {A} e.

Definition h2exn_eqb (a b : h2exn) : bool :=
  match a, b with
  | ProtocolError, ProtocolError | FrameTooLargeError, FrameTooLargeError
  | FrameDataMissingError, FrameDataMissingError | TooManyStreamsError, TooManyStreamsError
  | FlowControlError, FlowControlError | StreamIDTooLowError, StreamIDTooLowError
  | NoAvailableStreamIDError, NoAvailableStreamIDError | NoSuchStreamError, NoSuchStreamError
  | StreamClosedError, StreamClosedError | InvalidSettingsValueError, InvalidSettingsValueError
  | InvalidBodyLengthError, InvalidBodyLengthError | UnsupportedFrameError, UnsupportedFrameError
  | DenialOfServiceError, DenialOfServiceError | RFC1122Error, RFC1122Error => true
  | _, _ => false
  end.

(* For an enumerated type the case analysis on two values is quadratic whatever one does; [if eqb a b then a = b else True]
   keeps every off-diagonal case down to [I], where [eqb a b = true <-> a = b] pays a [discriminate] twice per case. *)
Section Enum.
  Context {T} (eqb : T -> T -> bool).
  Lemma eqb_eq_of : (forall a b, if eqb a b then a = b else True) -> (forall a, eqb a a = true) ->
    forall a b, eqb a b = true <-> a = b.
  Proof. intros S R a b. split; [intros H; specialize (S a b); rewrite H in S; exact S | intros <-; apply R]. Qed.
  Lemma in_of_existsb l x : (forall a b, eqb a b = true <-> a = b) -> (forall x, existsb (eqb x) l = true) -> In x l.
  Proof. intros E H. destruct (proj1 (existsb_exists _ _) (H x)) as (y & Hy & Hxy). apply E in Hxy. subst y. exact Hy. Qed.
End Enum.
Lemma Forall_True {A} (l : list A) : Forall (fun _ => True) l.
Proof. apply Forall_forall. intros; exact I. Qed.
Lemma forallb_all {A} (l : list A) (f : A -> bool) : (forall x, In x l) -> forallb f l = true -> forall x, f x = true.
Proof. intros C H x. exact (proj1 (forallb_forall f l) H x (C x)). Qed.
Lemma existsb_all {A} (l : list A) (f : A -> bool) : (forall x, In x l) -> forall x, f x = true -> existsb f l = true.
Proof. intros C x H. apply existsb_exists. exists x. split; [apply C | exact H]. Qed.

Lemma h2exn_eqb_eq a b : h2exn_eqb a b = true <-> a = b.
Proof. apply eqb_eq_of; repeat intros []; first [exact I | exact eq_refl]. Qed.

(* [is_protocol_error e]: e is ProtocolError or a subclass (everything except RFC1122Error). *)
Definition is_protocol_error (e : h2exn) : bool :=
  match e with RFC1122Error => false | _ => true end.

(* [except NoSuchStreamError] also catches its subclass StreamClosedError *)
Definition is_no_such_stream (e : h2exn) : bool :=
  match e with NoSuchStreamError | StreamClosedError => true | _ => false end.

Definition is_ok {A} (r : res A) : bool := match r with Ok _ => true | _ => false end.
Definition is_crash {A} (r : res A) : bool := match r with Crash _ => true | _ => false end.

Definition opt_default {A} (d : A) (o : option A) : A := match o with Some a => a | None => d end.

(* Python truthiness of an Optional[int] (None and 0 are falsy). *)
Definition truthy_optZ (o : option Z) : bool := match o with Some z => negb (z =? 0) | None => false end.
