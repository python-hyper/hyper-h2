(* C17 — Arbitrary peer bytes never produce a non-protocol exception. *)
From H2 Require Import Base.Prelude Model.Types Model.StreamFSM Model.Headers Model.Stream Model.ConnState
  Model.Connection Proofs.C17Proofs Proofs.C17Full.

(* The receive path can leave ProtocolError-land only where Python code indexes, decodes or asserts.  Each of those
   places is closed for ALL inputs: *)

(* header validation and normalisation, for every header list (empty names, names / values of any bytes, any order,
   any number of cookies) and every configuration: never IndexError *)
Theorem C17_header_pipeline_never_raises_index_error :
  forall cfg f hs, inbound_pipeline cfg f hs <> IIndexError.
Proof. exact inbound_pipeline_never_index_error. Qed.

(* ... so the processing of a received header list either returns headers or raises ProtocolError; undecodable text
   under header_encoding included *)
Theorem C17_received_headers_never_crash :
  forall cfg f hs p, process_received_headers cfg f hs <> Crash p.
Proof. exact process_received_headers_never_crashes. Qed.
Theorem C17_empty_header_name_is_protocol_error :
  forall cfg f s v, cfg_validate_in cfg = true -> step_inbound_full cfg f s [] v = VProtocolError.
Proof. intros cfg f s v H. unfold step_inbound_full. rewrite H. reflexivity. Qed.
Theorem C17_undecodable_header_is_protocol_error :
  forall cfg f hs, inbound_pipeline cfg f hs = IUnicodeError -> process_received_headers cfg f hs = perr.
Proof. intros cfg f hs H. unfold process_received_headers. rewrite H. reflexivity. Qed.

(* whatever hpack does with a block (any HPACKError, OversizedHeaderListError, or a list): ProtocolError,
   DenialOfServiceError or the list *)
Theorem C17_hpack_outcomes_never_crash :
  forall d c c' r, decode_headers d c = (c', r) -> forall p, r <> Crash p.
Proof. exact decode_headers_never_crashes. Qed.

(* frames the buffer refuses: ProtocolError, FrameDataMissingError, FrameTooLargeError; hyperframe's InvalidPaddingError is
   translated by receive_data; an h2 exception stays what it is on its way out *)
Theorem C17_padding_error_is_translated :
  forall c1 c2 r2, 8 <= c_max_out_frame c1 -> recv_except c1 (Crash ForeignError) = (c2, r2) -> r2 = perr.
Proof. exact padding_error_is_translated. Qed.
Theorem C17_protocol_errors_pass_through :
  forall c1 e code sid rst c2 r2, 8 <= c_max_out_frame c1 -> recv_except c1 (Err e code sid rst) = (c2, r2) -> r2 = Err e code sid rst.
Proof. exact h2_exception_stays_protocol_error. Qed.
Theorem C17_every_h2_exception_on_the_receive_path_is_a_protocol_error :
  forall e, e <> RFC1122Error -> is_protocol_error e = true.
Proof. intros e. destruct e; intros H; try reflexivity. contradiction. Qed.

(* handlers closed in every state *)
Theorem C17_priority_frames_never_crash : forall sid pr, never_crashes (recv_priority sid pr).
Proof. exact priority_frames_never_crash. Qed.
Theorem C17_goaway_frames_never_crash : forall last code dbg, never_crashes (recv_goaway last code dbg).
Proof. intros last code dbg. exact (never_crashes_of_nc _ fits (recv_goaway_nc last code dbg)). Qed.
Theorem C17_unknown_frames_never_crash : forall ft sid, never_crashes (dispatch (RUnknown ft sid)).
Proof. intros ft sid c c' r H p. cbn in H. injection H as _ <-. discriminate. Qed.

(* THE end-to-end statement: after ANY history of calls and received frames (no bound on length), receive_data on ANY list of
   frames - valid, malformed, refused by the frame buffer, with any HPACK outcome, any header list, any padding - returns events or
   raises an h2 exception; never IndexError, KeyError, AssertionError, UnicodeDecodeError nor a hyperframe error.  (Proofs/C17Full.v:
   every partial primitive on the receive path is shown unreachable or translated, under the frame-size invariant of Proofs/MfsInv.v,
   which holds over every history.  Proving it exposed a genuine defect, repaired in /repo commit 43f9ccd: a PUSH_PROMISE whose parent
   stream object had been left idle by a failed local call raised IndexError.) *)
Theorem C17_receive_data_only_raises_h2_exceptions :
  forall cfg os fs, let c := run (conn_new cfg) os in forall p, snd (api_receive fs c) <> Crash p.
Proof. exact receive_data_only_raises_h2_exceptions. Qed.

Print Assumptions C17_receive_data_only_raises_h2_exceptions.
Print Assumptions C17_header_pipeline_never_raises_index_error.
Print Assumptions C17_received_headers_never_crash.
Print Assumptions C17_empty_header_name_is_protocol_error.
Print Assumptions C17_undecodable_header_is_protocol_error.
Print Assumptions C17_hpack_outcomes_never_crash.
Print Assumptions C17_padding_error_is_translated.
Print Assumptions C17_protocol_errors_pass_through.
Print Assumptions C17_every_h2_exception_on_the_receive_path_is_a_protocol_error.
Print Assumptions C17_priority_frames_never_crash.
Print Assumptions C17_goaway_frames_never_crash.
Print Assumptions C17_unknown_frames_never_crash.

(* ... and in every state reachable by any history the two translations hold without side condition *)
From H2 Require Import Proofs.MfsInv.
Theorem C17_padding_error_is_translated_in_every_reachable_state :
  forall cfg os c2 r2, recv_except (run (conn_new cfg) os) (Crash ForeignError) = (c2, r2) -> r2 = perr.
Proof.
  intros cfg os c2 r2. apply padding_error_is_translated. pose proof (frame_size_limit_after_any_history cfg os). lia.
Qed.
Theorem C17_protocol_errors_pass_through_in_every_reachable_state :
  forall cfg os e code sid rst c2 r2, recv_except (run (conn_new cfg) os) (Err e code sid rst) = (c2, r2) -> r2 = Err e code sid rst.
Proof.
  intros cfg os e code sid rst c2 r2. apply h2_exception_stays_protocol_error. pose proof (frame_size_limit_after_any_history cfg os). lia.
Qed.
Print Assumptions C17_padding_error_is_translated_in_every_reachable_state.
Print Assumptions C17_protocol_errors_pass_through_in_every_reachable_state.
