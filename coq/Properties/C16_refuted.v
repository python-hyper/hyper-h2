(* C16: clauses that do NOT hold of the faithful model; each witness is replayed on the implementation (known findings F-C16-1..3) *)
From H2 Require Import Base.Prelude Model.FsmTypes Model.Types Model.Headers Model.Stream.

Definition cfgS := mkconfig false true true true true false.
Definition cfgC := mkconfig true true true true true false.
Definition b_path := [58;112;97;116;104]. Definition b_scheme := [58;115;99;104;101;109;101]. Definition b_auth := [58;97;117;116;104;111;114;105;116;121].
Definition REQ_CL5 : list hitem :=
  [(b_method, [71;69;84], false); (b_path, [47], false); (b_scheme, [104;116;116;112;115], false); (b_auth, [97], false); (b_content_length, [53], false)].
Definition RESP304 : list hitem := [(b_status, [51;48;52], false); (b_content_length, [49;48], false)].
Definition s0 := stream_new 1 65535 65535 16384.
Definition is_ok {A} (r : res A) : bool := match r with Ok _ => true | _ => false end.

(* "a request whose DATA payload total differs from its content-length is rejected": not when END_STREAM is on the HEADERS frame *)
Theorem C16_end_stream_on_headers_refuted : is_ok (snd (receive_headers cfgS REQ_CL5 true s0)) = true.
Proof. vm_compute. reflexivity. Qed.

(* ... nor when the message is ended by trailers *)
Theorem C16_ended_by_trailers_refuted :
  let '(s1, _) := receive_headers cfgS REQ_CL5 false s0 in is_ok (snd (receive_headers cfgS [([120], [49], false)] true s1)) = true.
Proof. vm_compute. reflexivity. Qed.

(* "304 responses are rejected only if they carry DATA payload, whatever their content-length says": a 304 with
   content-length 10 ended by an empty DATA frame is rejected *)
Theorem C16_304_with_content_length_refuted :
  let sc := fst (fsm SI_SEND_HEADERS (set_method s0 (Some [71;69;84]))) in
  let '(s1, r1) := receive_headers cfgC RESP304 false sc in
  is_ok r1 = true /\ snd (receive_data 0 0 true s1) = Err InvalidBodyLengthError 1 0 false.
Proof. vm_compute. split; reflexivity. Qed.

Print Assumptions C16_end_stream_on_headers_refuted.
Print Assumptions C16_ended_by_trailers_refuted.
Print Assumptions C16_304_with_content_length_refuted.
