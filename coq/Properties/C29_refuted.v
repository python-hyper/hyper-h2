(* C29 — call patterns that leak a non-h2 exception or append bytes although they raise (known findings). *)
From H2 Require Import Base.Prelude Model.Types Model.ConnState Model.Connection.
Definition cfgc := mkconfig true true true true true false.
Definition cfgs := mkconfig false true true true true false.

(* F-C29-1: close_connection with additional data larger than the peer's MAX_FRAME_SIZE: AssertionError AFTER the
   oversized GOAWAY was appended *)
Theorem C29_close_connection_oversize_refuted :
  let c := run (conn_new cfgc) [OInitiate; ODrain] in
  snd (step c (OCloseConnection 0 None 70000)) = Crash AssertionError /\
  c_out (fst (step c (OCloseConnection 0 None 70000))) = [FGoAway 0 0 70000].
Proof. vm_compute. split; reflexivity. Qed.

(* F-C29-2: prioritize(0): a hyperframe exception (not an h2 one) *)
Theorem C29_prioritize_stream_zero_refuted :
  let c := run (conn_new cfgc) [OInitiate] in snd (step c (OPrioritize 0 None None None)) = Crash ForeignError.
Proof. vm_compute. reflexivity. Qed.

(* F-C29-3 (advertise_alternative_service with neither origin nor stream: TypeError) is repaired by fix c0a4c40 *)

Print Assumptions C29_close_connection_oversize_refuted.
Print Assumptions C29_prioritize_stream_zero_refuted.
