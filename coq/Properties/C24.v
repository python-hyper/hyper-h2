(* C24 — Alternative-service advertisements follow the RFC 7838 rules. *)
From H2 Require Import Base.Prelude Base.PyDict Model.FsmTypes Model.Types Model.StreamFSM Model.Stream
  Model.ConnState Model.Connection Proofs.FsmReach Proofs.C0708Proofs Proofs.PushProofs Proofs.AltSvcUpgradeProofs
  Proofs.Wp.
From H2 Require Proofs.ConnPrims.

Theorem C24_altsvc_never_names_both :
  forall field o i c,
  api_advertise_alt_svc field (Some o) (Some i) c = (c, Crash ValueError).
Proof. intros field o i c. reflexivity. Qed.

(* only servers advertise (fix 4e7b916): on a client-side connection, in EVERY state, the call fails and changes nothing *)
Theorem C24_client_cannot_advertise :
  forall field origin sid c, client c = true -> exists r, api_advertise_alt_svc field origin sid c = (c, r) /\ is_ok r = false.
Proof. exact client_cannot_advertise. Qed.
(* an advertisement names an origin or a stream (fix c0a4c40: ValueError and nothing changed when it names neither) *)
Theorem C24_altsvc_names_one :
  forall field c, api_advertise_alt_svc field None None c = (c, Crash ValueError).
Proof. intros field c. reflexivity. Qed.

Theorem C24_open_client_cannot_advertise :
  forall field origin sid c,
  c_state c = C_CLIENT_OPEN -> is_ok (snd (api_advertise_alt_svc field origin sid c)) = false.
Proof.
  intros field origin sid c Hs. destruct (client c) eqn:Ec.
  - destruct (client_cannot_advertise field origin sid c Ec) as (r & -> & Hr). exact Hr.
  - (* a server-side object in a client's state: the state machine refuses *)
    unfold api_advertise_alt_svc. destruct origin, sid; try reflexivity;
      rewrite ConnPrims.bind_get, Ec, ConnPrims.bind_ret; apply bind_err; unfold cfsm; rewrite Hs; reflexivity.
Qed.

Theorem C24_stream_advertisement_only_between_request_and_response :
  forall is,
  c24_send_rule (run_inputs sm_new is) = true.
Proof. intros is. apply reach_forall. vm_compute. reflexivity. Qed.

Theorem C24_server_ignores_altsvc_on_stream_zero :
  forall origin field c c1,
  cfsm CI_RECV_ALTERNATIVE_SERVICE c = (c1, Ok tt) -> client c1 = false -> recv_alt_svc 0 origin field c = (c1, Ok ([], [])).
Proof.
  intros origin field c c1 Hc Hcl. unfold recv_alt_svc. unfold bind at 1. rewrite Hc. unfold bind, get. cbn [Z.eqb negb].
  destruct origin; [reflexivity|]. rewrite Hcl. reflexivity.
Qed.

Theorem C24_altsvc_on_stream_zero_needs_origin :
  forall field c c1,
  cfsm CI_RECV_ALTERNATIVE_SERVICE c = (c1, Ok tt) -> recv_alt_svc 0 [] field c = (c1, Ok ([], [])).
Proof. intros field c c1 Hc. unfold recv_alt_svc. unfold bind at 1. rewrite Hc. reflexivity. Qed.

Theorem C24_client_reports_origin_advertisement :
  forall o origin field c c1,
  cfsm CI_RECV_ALTERNATIVE_SERVICE c = (c1, Ok tt) -> client c1 = true ->
  recv_alt_svc 0 (o :: origin) field c = (c1, Ok ([], [EAltSvcAvailable (Some (o :: origin)) field])).
Proof. intros o origin field c c1 Hc Hcl. unfold recv_alt_svc. unfold bind at 1. rewrite Hc. unfold bind, get. cbn [Z.eqb negb]. rewrite Hcl. reflexivity. Qed.

(* stream-bound frames: an origin in the frame conflicts with the stream's and is ignored; otherwise the event carries the
   :authority of our own request; unknown streams are ignored *)
Theorem C24_stream_altsvc_with_origin_ignored :
  forall o origin field s,
  receive_alt_svc (o :: origin) field s = (s, Ok []).
Proof. intros o origin field s. reflexivity. Qed.

Theorem C24_stream_altsvc_event_carries_request_authority :
  forall field s s' evs,
  receive_alt_svc [] field s = (s', Ok evs) -> evs = [] \/ evs = [EAltSvcAvailable (s_authority s') field].
Proof. intros field s s' evs. exact (wp_run _ _ _ _ _ _ _ (receive_alt_svc_nc [] field s)). Qed.

Theorem C24_altsvc_on_unknown_stream_ignored :
  forall sid origin field c c1,
  sid <> 0 -> cfsm CI_RECV_ALTERNATIVE_SERVICE c = (c1, Ok tt) -> dget sid (c_streams c1) = None ->
  recv_alt_svc sid origin field c = (c1, Ok ([], [])).
Proof.
  intros sid origin field c c1 Hz Hc Hn. unfold recv_alt_svc. unfold bind at 1. rewrite Hc. unfold bind, get.
  destruct (sid =? 0) eqn:E; [apply Z.eqb_eq in E; contradiction|]. cbn [negb]. rewrite Hn. reflexivity.
Qed.

Theorem C24_altsvc_event_only_before_response_headers :
  forall is,
  c24_recv_rule (run_inputs sm_new is) = true.
Proof. intros is. apply reach_forall. vm_compute. reflexivity. Qed.

Print Assumptions C24_altsvc_never_names_both.
Print Assumptions C24_open_client_cannot_advertise.
Print Assumptions C24_stream_advertisement_only_between_request_and_response.
Print Assumptions C24_server_ignores_altsvc_on_stream_zero.
Print Assumptions C24_altsvc_on_stream_zero_needs_origin.
Print Assumptions C24_client_reports_origin_advertisement.
Print Assumptions C24_stream_altsvc_with_origin_ignored.
Print Assumptions C24_stream_altsvc_event_carries_request_authority.
Print Assumptions C24_altsvc_on_unknown_stream_ignored.
Print Assumptions C24_altsvc_event_only_before_response_headers.
Print Assumptions C24_client_cannot_advertise.
Print Assumptions C24_altsvc_names_one.
