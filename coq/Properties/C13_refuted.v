(* C13: "a call that raises leaves the compression context as if it had never been made" does NOT hold: the validators are lazy
   generators consumed inside Encoder.encode, and the trailer check of send_headers runs after encoding. *)
From H2 Require Import Base.Prelude Model.Types Model.Headers Model.Stream.

Definition cfgC := mkconfig true true true true true false.
Definition b_path := [58;112;97;116;104]. Definition b_scheme := [58;115;99;104;101;109;101]. Definition b_auth := [58;97;117;116;104;111;114;105;116;121].
Definition REQ : list hitem := [(b_method, [71;69;84], false); (b_path, [47], false); (b_scheme, [104;116;116;112;115], false); (b_auth, [97], false)].
Definition s0 := stream_new 1 65535 65535 16384.
Definition raised {A} (r : res A) : bool := match r with Ok _ => false | _ => true end.

(* a request whose fifth field is refused (te: gzip): the call raises ProtocolError, yet the encoder consumed the first four fields *)
Theorem C13_validation_failure_pollutes_the_encoder :
  let '(s', (r, e)) := send_headers cfgC (REQ ++ [([116;101], [103;122;105;112], false)]) 20 false s0 in
  raised r = true /\ e = Some REQ.
Proof. vm_compute. split; reflexivity. Qed.

(* trailers without END_STREAM: refused after the whole block was encoded *)
Theorem C13_trailers_check_runs_after_encoding :
  let s1 := fst (send_headers cfgC REQ 20 false s0) in
  let '(s', (r, e)) := send_headers cfgC [([120], [49], false)] 3 false s1 in
  raised r = true /\ e = Some [([120], [49], false)].
Proof. vm_compute. split; reflexivity. Qed.

Print Assumptions C13_validation_failure_pollutes_the_encoder.
Print Assumptions C13_trailers_check_runs_after_encoding.
