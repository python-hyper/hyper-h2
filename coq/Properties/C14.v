(* C14 — Outbound header blocks are normalised and RFC 7540 section 8.1.2 conformant. *)
From H2 Require Import Base.Prelude Model.Types Gen.Consts Model.Headers Spec.Rfc812 Proofs.C15Proofs Proofs.C14Proofs.

(* what the outbound validation lets through: exactly the lists that satisfy the predicate; on refusal, the encoder has only
   consumed a proper prefix *)
Theorem C14_outbound_validation_accepts_exactly :
  forall cfg f hs,
  cfg_validate_out cfg = true -> hf_trailer f && hf_response f = false ->
  let hs1 := if cfg_normalize_out cfg then normalize_outbound hs else hs in
  outbound_pipeline cfg f hs = (if conformant_sem (blk f) hs1 then (hs1, PAll) else (fst (outbound_pipeline cfg f hs), PProtocolError)).
Proof.
  intros cfg f hs Hv Hf hs1. unfold outbound_pipeline. fold hs1. rewrite Hv.
  pose proof (one_pass _ (abs f) _ _ (fun _ => true) (placed_snoc (sem_ok (blk f))) (step_common_sem f) hs1 [] [] eq_refl) as H.
  rewrite abs_nil, (proj2 (forallb_forall _ hs1)), andb_true_r in H by reflexivity. cbn [app rev] in H.
  destruct (run_steps _ vs0 hs1 []) as [[out r] s].
  change (conformant_sem (blk f) hs1) with (placed (sem_ok (blk f)) hs1 && role_ok (blk f) hs1).
  destruct (placed _ hs1).
  - destruct H as (-> & -> & ->). rewrite (end_checks_spec f _ Hf). destruct (role_ok _ _); reflexivity.
  - destruct H as [[-> | [_ H]] _]; [reflexivity | discriminate].
Qed.

(* every field of a normalised list is spelled right except that it may be empty; no connection-specific field survives *)
Theorem C14_normalised_fields_are_lowercase_and_trimmed :
  forall hs n v ni,
  In (n, v, ni) (normalize_outbound hs) ->
  existsb upper n = false /\ no_surrounding_ws n = true /\ no_surrounding_ws v = true /\ is_in n connection_specific = false.
Proof.
  intros hs n v ni. unfold normalize_outbound. intros H. apply in_map_iff in H as ([[n1 v1] ni1] & Hs & H).
  apply filter_In in H as [H Hc]. apply in_map_iff in H as ([[n0 v0] ni0] & He & _). injection He as <- <- <-.
  rewrite secure_eq in Hs. injection Hs as <- <- _. cbn [fst] in Hc.
  split; [|split; [apply strip_no_surrounding_ws | split; [apply strip_no_surrounding_ws|]]].
  - apply strip_keeps_none, lower_has_no_upper.
  - change (mem_bytes (strip (lower n0)) CONNECTION_HEADERS) with (is_in (strip (lower n0)) connection_specific) in Hc.
    destruct (is_in (strip (lower n0)) connection_specific); [discriminate|reflexivity].
Qed.

Theorem C14_sensitive_fields_are_never_indexed :
  forall hs n v ni,
  In (n, v, ni) (normalize_outbound hs) -> sensitive n v = true -> ni = true.
Proof.
  intros hs n v ni. unfold normalize_outbound. intros H Hs. apply in_map_iff in H as ([[n1 v1] ni1] & Hsec & _).
  rewrite secure_eq in Hsec. injection Hsec as <- <- <-. rewrite Hs. reflexivity.
Qed.

Theorem C14_field_ok_split :
  forall k n v,
  field_ok k n v = spelled_ok n v && sem_ok k n v.
Proof. exact field_ok_split. Qed.

Print Assumptions C14_outbound_validation_accepts_exactly.
Print Assumptions C14_normalised_fields_are_lowercase_and_trimmed.
Print Assumptions C14_sensitive_fields_are_never_indexed.
Print Assumptions C14_field_ok_split.
