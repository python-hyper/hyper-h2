(* C08, clauses that do NOT hold of the faithful model: witnesses, replayed on the implementation as known finding F-C08-2 *)
From H2 Require Import Base.Prelude Model.FsmTypes Model.StreamFSM Proofs.FsmReach Proofs.C0708Proofs.

(* "DATA or END_STREAM before the final headers ... are refused": not on a stream the peer opened *)
Theorem C08_data_before_final_headers_refuted :
  exists is, let m := run_inputs sm_new is in sm_hs m = false /\ accepted m SI_SEND_DATA = true /\ accepted m SI_SEND_END_STREAM = true.
Proof. exists [SI_RECV_HEADERS]. vm_compute. repeat split; reflexivity. Qed.

(* "a client can never ... advertise alt-svc": the IDLE state of the connection table accepts SEND_ALTERNATIVE_SERVICE whatever
   the role (C0708Proofs.c08_idle_connection_altsvc_refuted); advertise_alternative_service checks the role itself since fix
   4e7b916 (theorem C24_client_cannot_advertise) *)

Print Assumptions C08_data_before_final_headers_refuted.
