(* C06 — Stream lifecycle follows the RFC 7540 section 5.1 state machine. *)
From H2 Require Import Base.Prelude Model.FsmTypes Model.StreamFSM Spec.Rfc51 Proofs.C06Proofs Proofs.FsmReach.

(* For EVERY state the stream object can be in (RFC state x role x headers/trailers sent/received x closed_by) and EVERY input
   (local actions and received frames), the reaction of h2's transition table and side-effect functions — accepted and new
   state / refused to the caller / stream error with its code / connection error with its code, the last two told apart
   as H2Connection._receive_frame does — is the one the reference machine of Spec/Rfc51.v prescribes, except on the pairs
   of the explicit list [divergences] (documented leniencies, internal inputs, and the undocumented divergences recorded as
   known findings).  The table is regenerated from stream._transitions on every run; the space is finite (7*3*16*5 states
   x 19 inputs) and decided completely by vm_compute.  Any interleaving of actions and frames only ever visits such
   states, so this covers every sequence; the lock-step corollary below spells that out for accepted steps. *)
Theorem C06_every_reaction_follows_the_rfc_machine :
  forall m i, pointwise_ok m i = true.
Proof. exact stream_reactions_follow_rfc. Qed.

(* the list of exceptions is exact: every listed pair does deviate *)
Theorem C06_divergence_list_is_tight :
  forallb (fun d => existsb (fun m => existsb (fun i =>
     match d with [a; b; c; _] => (a =? sstate_code (sm_state m)) && (b =? cb_code (sm_cb m)) && (c =? icode i) && deviates m i | _ => false end)
     all_sinput) all_sm) divergences = true.
Proof.
  apply forallb_forall. intros d Hd.
  apply (proj1 (forallb_forall _ _) dev_witnesses_hit), existsb_exists in Hd as ([m i] & _ & H).
  apply (existsb_all _ _ all_sm_complete m), (existsb_all _ _ all_sinput_complete i). exact H.
Qed.

(* what the RFC permits in a state, h2 carries out in some message context, reaching the RFC's target state *)
Theorem C06_permitted_actions_are_possible :
  forallb (fun s => forallb (fun i => permitted_somewhere s None i || listed (mksm s None false false false false None) i) all_sinput)
          [S_IDLE; S_RESERVED_REMOTE; S_RESERVED_LOCAL; S_OPEN; S_HALF_CLOSED_REMOTE; S_HALF_CLOSED_LOCAL] = true.
Proof. vm_compute. reflexivity. Qed.

(* lock-step: an accepted step moves the stream object exactly where the RFC machine goes *)
Theorem C06_accepted_steps_track_the_rfc_state :
  forall m i m' evs, consistent m = true -> listed m i = false -> process_input 7 m i = (m', Ok evs) ->
    match rfc (sm_state m) (sm_cb m) i with
    | Accept s' => sm_state m' = s'
    | Ignore | Neutral => sm_state m' = sm_state m
    | _ => False
    end.
Proof.
  intros m i m' evs Hc Hl Hp. pose proof (stream_reactions_follow_rfc m i) as H. unfold pointwise_ok in H.
  rewrite Hc, Hl in H. cbn [negb orb] in H. unfold lib_class in H. rewrite Hp in H.
  assert (E : forall a b, zl_eqb [0; sstate_code a] [0; sstate_code b] = true -> a = b).
  { intros a b. destruct a, b; cbn; intros X; try reflexivity; discriminate. }
  destruct (rfc (sm_state m) (sm_cb m) i) as [s'| | | | |]; cbn [agrees] in H; try (cbn in H; discriminate).
  - apply orb_true_iff in H as [H|H]; [exact (E _ _ H)|].
    unfold message_rule_refusal in H. destruct (is_send i); cbn in H; discriminate.
  - exact (E _ _ H).
  - apply orb_true_iff in H as [H|H]; [exact (E _ _ H)|cbn in H; discriminate].
Qed.

Example C06_example_half_closed_remote_data :
  rfc S_HALF_CLOSED_REMOTE None SI_RECV_DATA = StreamError 5 /\
  lib_class (mksm S_HALF_CLOSED_REMOTE (Some false) false false true false None) SI_RECV_DATA = [2; 5].
Proof. split; reflexivity. Qed.

Print Assumptions C06_every_reaction_follows_the_rfc_machine.
Print Assumptions C06_divergence_list_is_tight.
Print Assumptions C06_permitted_actions_are_possible.
Print Assumptions C06_accepted_steps_track_the_rfc_state.
