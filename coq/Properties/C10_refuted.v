(* C10 — a server that activates reserved (pushed) streams is not held to the peer's limit (known finding F-C10-1):
   the check is made only when the id is not yet in the stream table. *)
From H2 Require Import Base.Prelude Model.Types Model.Settings Model.StreamFSM Model.ConnState Model.Connection
  Proofs.C10Proofs.
Definition cfgs := mkconfig false true true true true false.
Definition req : list hitem :=
  [([58;109;101;116;104;111;100],[71;69;84],false);([58;112;97;116;104],[47],false);
   ([58;115;99;104;101;109;101],[104;116;116;112;115],false);([58;97;117;116;104;111;114;105;116;121],[97],false)].
Definition resp : list hitem := [([58;115;116;97;116;117;115],[50;48;48],false)].
Definition C10_outbound_count_bounded_full : Prop :=
  forall cfg os, let c := run (conn_new cfg) os in open_count (b2z (client c)) c <= s_max_concurrent_streams (c_remote c).
Theorem C10_reserved_activation_refuted :
  let c := run (conn_new cfgs)
             [OInitiate; OReceive [(RSettings false [(3, 1)], 6); (RHeaders 1 false None (HDecoded req), 10)];
              OPushStream 1 2 req 10; OPushStream 1 4 req 10;
              OSendHeaders 2 resp 1 false None None None; OSendHeaders 4 resp 1 false None None None] in
  s_max_concurrent_streams (c_remote c) = 1 /\ open_count (b2z (client c)) c = 2.
Proof. vm_compute. split; reflexivity. Qed.
Print Assumptions C10_reserved_activation_refuted.
