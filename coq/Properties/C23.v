(* C23 — Priority information round-trips and never changes stream state.
   [add_frame_priority] is connection._add_frame_priority (its two checks are the guards g_prio_self /
   g_prio_weight extracted from the source on this run); [recv_priority] is _receive_priority_frame. *)
From H2 Require Import Base.Prelude Model.FsmTypes Gen.Tables Model.Types Model.ConnState Model.Connection
  Model.StreamFSM Proofs.C23Proofs.

(* accepted exactly for weight in 1..256 (when given) and no self-dependency; for all integers *)
Theorem C23_priority_arguments_accepted_iff_in_range :
  forall sid w d e,
    (prio_args_ok sid w d ->
       add_frame_priority sid w d e =
       Ok (match d with Some dep => dep | None => 0 end, match w with Some x => x - 1 | None => 15 end,
           match e with Some b => b | None => false end)) /\
    (~ prio_args_ok sid w d -> add_frame_priority sid w d e = perr).
Proof. intros. split; [apply add_frame_priority_accepts | apply add_frame_priority_rejects]. Qed.

(* what the peer reports equals what was asked for, with the defaults 16 / 0 / False *)
Theorem C23_priority_round_trip :
  forall sid w d e c, prio_args_ok sid w d -> sid <> 0 -> conn_transition (c_state c) CI_RECV_PRIORITY <> None ->
    forall p, add_frame_priority sid w d e = Ok p ->
      snd (recv_priority sid p c) =
      Ok [EPriorityUpdated sid (match w with Some x => x | None => 16 end) (match d with Some dep => dep | None => 0 end)
                           (match e with Some b => b | None => false end)].
Proof. exact priority_round_trip. Qed.

(* a received PRIORITY frame, on ANY stream id, in any connection state before close: the whole
   connection state (streams, closed streams, windows, settings, ids, buffers) is unchanged *)
Theorem C23_received_priority_changes_no_state :
  forall sid p c c' r, c_state c <> C_CLOSED -> recv_priority sid p c = (c', r) -> c' = c.
Proof. exact recv_priority_state_unchanged. Qed.

(* and it yields exactly one PriorityUpdated, or a protocol error for a self-dependency *)
Theorem C23_received_priority_result :
  forall sid dep w ex c, conn_transition (c_state c) CI_RECV_PRIORITY <> None ->
    snd (recv_priority sid (dep, w, ex) c) = if dep =? sid then perr else Ok [EPriorityUpdated sid (w + 1) dep ex].
Proof. intros sid dep w ex c Ht. rewrite recv_priority_open by exact (priority_accepted_unless_closed c Ht). reflexivity. Qed.

(* servers cannot prioritise *)
Theorem C23_servers_are_refused :
  forall sid w d e c, cfg_client (c_cfg c) = false -> api_prioritize sid w d e c = (c, Err RFC1122Error 0 0 false).
Proof. intros sid w d e c H. unfold api_prioritize, bind, get, client. rewrite H. reflexivity. Qed.

Example C23_ex : prio_args_ok 1 (Some 256) (Some 3) /\ ~ prio_args_ok 1 (Some 257) None /\ ~ prio_args_ok 5 None (Some 5).
Proof. unfold prio_args_ok. repeat split; try lia; intros [A B]; try lia; apply B; reflexivity. Qed.

Print Assumptions C23_priority_arguments_accepted_iff_in_range.
Print Assumptions C23_priority_round_trip.
Print Assumptions C23_received_priority_changes_no_state.
Print Assumptions C23_received_priority_result.
Print Assumptions C23_servers_are_refused.
