(* C22 — Server push rules are enforced on both ends. *)
From H2 Require Import Proofs.C22Full Proofs.RoleInv.
From H2 Require Import Base.Prelude Base.PyDict Model.FsmTypes Gen.Guards Model.Types Model.Settings Model.StreamFSM
  Model.Stream Model.ConnState Model.Connection Proofs.C0708Proofs Proofs.PushProofs Proofs.Wp.
From H2 Require Proofs.ConnPrims.

(* "... succeeds exactly when a SERVER pushes": after ANY history of API calls and received frames (no bound on length), a
   push_stream call that succeeds was made on a server-side connection.  Rests on the role invariant of Proofs/RoleInv.v:
   the connection state machine agrees with the configured role after every history (this is false of the tree before
   fixes 12650a7, 09dbf89, 4e7b916 and 1fed9f8, each of which let one side drive the state machine into the other role). *)
Theorem C22_only_servers_push :
  forall cfg os sid promised hs L c',
    api_push_stream sid promised hs L (run (conn_new cfg) os) = (c', Ok tt) -> cfg_client cfg = false.
Proof. exact only_servers_push. Qed.

(* The "only when" half of "push_stream succeeds exactly when ...", for EVERY connection state and every argument: a
   push_stream call that succeeds was made on a connection in state SERVER_OPEN whose peer allows push, on an odd
   (client-initiated) parent that is in the stream table, open or half-closed (remote) and not playing the client role,
   with an even promised id above the watermark of its direction. *)
Theorem C22_push_stream_only_when_the_rules_hold :
  forall sid promised hs L c c',
    api_push_stream sid promised hs L c = (c', Ok tt) ->
    s_enable_push (c_remote c) <> 0 /\
    c_state c = C_SERVER_OPEN /\
    sid mod 2 = 1 /\
    promised mod 2 = 0 /\ promised > highest_for c promised /\
    exists s, dget sid (c_streams c) = Some s /\
              (sm_state (s_sm s) = S_OPEN \/ sm_state (s_sm s) = S_HALF_CLOSED_REMOTE) /\
              client_is (s_sm s) true = false.
Proof. exact push_stream_only_when_the_rules_hold. Qed.

Theorem C22_push_refused_when_peer_disabled_push :
  forall sid promised hs L c,
  s_enable_push (c_remote c) = 0 -> api_push_stream sid promised hs L c = (c, perr).
Proof. intros sid promised hs L c H. unfold api_push_stream, bind, get. rewrite H. reflexivity. Qed.

Theorem C22_client_cannot_push :
  forall sid promised hs L c,
  c_state c = C_CLIENT_OPEN -> is_ok (snd (api_push_stream sid promised hs L c)) = false.
Proof. intros sid promised hs L c Hs. apply push_refused. intros (_ & Hs' & _). congruence. Qed.

Theorem C22_push_on_pushed_stream_refused :
  forall sid promised hs L c,
  sid mod 2 = 0 -> is_ok (snd (api_push_stream sid promised hs L c)) = false.
Proof. intros sid promised hs L c He. apply push_refused. intros (_ & _ & Ho & _). congruence. Qed.

Theorem C22_push_promise_is_connection_error_when_push_disabled :
  forall sid promised d c,
  s_enable_push (c_local c) = 0 -> recv_push_promise sid promised d c = (c, perr).
Proof. intros sid promised d c H. unfold recv_push_promise, bind, get. rewrite H. reflexivity. Qed.

Theorem C22_push_promise_on_pushed_stream_refused :
  forall sid promised d hs c c2 c3 s,
  sid mod 2 = 0 -> s_enable_push (c_local c) <> 0 -> decode_headers d c = (c2, Ok hs) -> cfsm CI_RECV_PUSH_PROMISE c2 = (c3, Ok tt) ->
  dget sid (c_streams c3) = Some s -> recv_push_promise sid promised d c = (c3, perr).
Proof.
  intros sid promised d hs c c2 c3 s He Hp Hd Hc Hs. unfold recv_push_promise. rewrite ConnPrims.bind_get.
  replace (_ =? 0) with false by lia.
  rewrite ConnPrims.bind_ret, (ConnPrims.bind_ok_eq _ _ _ _ _ Hd), (ConnPrims.bind_ok_eq _ _ _ _ _ Hc), ConnPrims.bind_get, Hs.
  unfold g_recv_push_recursive. rewrite He. reflexivity.
Qed.

(* what a client reports for an accepted PUSH_PROMISE: parent id, promised id, validated headers *)
Theorem C22_pushed_stream_event_shape :
  forall cfg promised hs s s' evs,
  receive_push_promise_in_band cfg promised hs s = (s', Ok evs) ->
  exists f h, evs = [EPushedStreamReceived promised (s_id s) h] /\ process_received_headers cfg f hs = Ok h.
Proof. intros cfg promised hs s s' evs. exact (wp_run _ _ _ _ _ _ _ (receive_push_promise_in_band_nc cfg promised hs s)). Qed.

Print Assumptions C22_push_refused_when_peer_disabled_push.
Print Assumptions C22_client_cannot_push.
Print Assumptions C22_push_on_pushed_stream_refused.
Print Assumptions C22_push_promise_is_connection_error_when_push_disabled.
Print Assumptions C22_push_promise_on_pushed_stream_refused.
Print Assumptions C22_pushed_stream_event_shape.
Print Assumptions C22_push_stream_only_when_the_rules_hold.
Print Assumptions C22_only_servers_push.
