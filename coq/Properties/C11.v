(* C11 — Settings take effect exactly when acknowledged, one frame per ACK, in order.
   [supdate] is Settings.update (one __setitem__ per pair), [sacknowledge] is Settings.acknowledge,
   [settled s]: no value is waiting for an acknowledgement.  Validation is settings._validate_setting (C12). *)
From H2 Require Import Base.Prelude Base.PyDict Model.SettingsV Model.Settings Model.Types Model.ConnState
  Model.Connection Proofs.C11Proofs Proofs.C11Fifo Proofs.ConnPrims Gen.Consts.

(* __setitem__: a valid value is queued behind the value in force; an invalid one changes nothing *)
Theorem C11_setitem :
  forall k v s,
    (validate_setting k v = 0 ->
       ssetitem k v s = (dset k ((match dget k s with Some q => q | None => [None] end) ++ [Some v]) s, Ok tt)) /\
    (validate_setting k v <> 0 -> ssetitem k v s = (s, Err InvalidSettingsValueError (validate_setting k v) 0 false)).
Proof. intros. split; [apply ssetitem_ok | apply ssetitem_invalid]. Qed.

(* One SETTINGS frame (any number of distinct identifiers, known or unknown) followed by one acknowledgement,
   starting from a settled object: every identifier of the frame takes exactly the frame's value, every other
   identifier is untouched, and the object is settled again.  This is the received-SETTINGS path (applied at
   once: update then acknowledge) and the local path whenever a single frame is in flight. *)
Theorem C11_one_frame_is_applied_by_one_acknowledgement :
  forall kvs s s1, settled s -> NoDup (map fst kvs) -> supdate kvs s = (s1, Ok tt) ->
    let s2 := fst (sacknowledge s1) in
    (forall k v, lookup k kvs = Some v -> sget k s2 = Some v) /\
    (forall k, lookup k kvs = None -> dget k s2 = dget k s) /\
    settled s2.
Proof.
  intros kvs s s1 Hs Hnd Hu s2. pose proof (update_then_ack kvs s s1 Hs Hnd Hu) as He. fold s2 in He. split; [|split].
  - intros k v Hl. unfold sget. rewrite He, Hl. reflexivity.
  - intros k Hl. rewrite He, Hl. reflexivity.
  - intros k q Hq. rewrite He in Hq. destruct (lookup k kvs); [injection Hq as <-; eexists; reflexivity | exact (Hs k q Hq)].
Qed.

Theorem C11_fresh_settings_are_settled : forall client, settled (settings_defaults client).
Proof.
  intros client.
  unfold settings_defaults. generalize (if client then default_settings_client else default_settings_server) as l.
  induction l as [|[k0 v0] l IH]; intros k q H; cbn [map dget fst snd] in H; [discriminate|].
  destruct (k =? k0); [injection H as <-; eexists; reflexivity | exact (IH k q H)].
Qed.

(* an update_settings call that raises appends nothing to the output *)
Theorem C11_failing_update_settings_emits_nothing :
  forall kvs c c' r, 6 * zlen kvs <= c_max_out_frame c ->
    api_update_settings kvs c = (c', r) -> is_ok r = false -> c_out c' = c_out c.
Proof.
  intros kvs c c' r Hsz H Hr. unfold api_update_settings, bind in H. rewrite cfsm_eq, lift_local_eq in H.
  (* a refusal by the state machine or by the validation of a pair ends the call before anything is appended *)
  destruct (Gen.Tables.conn_transition _ _); [|injection H as <- _; reflexivity].
  destruct (snd (supdate kvs _)) as [[]|e co i b|p]; [|injection H as <- _; reflexivity..].
  (* the frame fits, so it is appended and the call returns *)
  rewrite prepare_ok in H; [injection H as _ <-; discriminate|].
  cbn [forallb body_len]. unfold zlen in *. rewrite map_length, andb_true_r. apply Z.leb_le. exact Hsz.
Qed.

(* Any number of SETTINGS frames in flight on ONE identifier k (queue_sends k vs: one update_settings({k: v}) per
   element of vs — supdate [(k, v)] is one ssetitem —, values may repeat; acks n: n acknowledgements): no pending
   value is in force before its acknowledgement, the (j+1)-th acknowledgement puts exactly the (j+1)-th value in force,
   and after the last one the identifier is settled on the last value.  No bound on the number of frames. *)
Theorem C11_pending_values_are_not_in_force :
  forall k vs s o, dget k s = Some [o] -> Forall (fun v => validate_setting k v = 0) vs ->
    sget k (queue_sends k vs s) = sget k s.
Proof.
  intros k vs s o Hs Hv. unfold sget. rewrite (queue_sends_queue k vs s [o] Hs Hv), Hs. reflexivity.
Qed.

Theorem C11_same_identifier_acknowledged_in_order :
  forall k vs s o j v, dget k s = Some [o] -> Forall (fun v => validate_setting k v = 0) vs ->
    nth_error vs j = Some v ->
    sget k (acks (S j) (queue_sends k vs s)) = Some v.
Proof.
  intros k vs s o j v Hs Hv Hj. assert (Hlen : (j < length vs)%nat) by (apply nth_error_Some; congruence).
  unfold sget. rewrite (fifo_queue k vs s o (S j) Hs Hv Hlen). cbn [skipn].
  destruct (skipn_nth_error (map Some vs) j (Some v) (map_nth_error Some j vs Hj)) as [r ->]. reflexivity.
Qed.

Theorem C11_same_identifier_settles_on_the_last_value :
  forall k vs s o v, dget k s = Some [o] -> Forall (fun v => validate_setting k v = 0) vs ->
    last (map Some vs) None = Some v ->
    dget k (acks (length vs) (queue_sends k vs s)) = Some [Some v].
Proof.
  intros k vs s o v Hs Hv Hl. rewrite (fifo_queue k vs s o _ Hs Hv (le_n _)), <- (map_length Some vs), (skipn_length_last _ None), Hl; [reflexivity|].
  destruct vs; discriminate.
Qed.

(* non-vacuity: MAX_FRAME_SIZE 65536, 65536, 16384 in flight on fresh settings (a repeated value) *)
Example C11_ex_fifo :
  let s := settings_defaults true in
  dget 5 s = Some [Some 16384] /\ Forall (fun v => validate_setting 5 v = 0) [65536; 65536; 16384] /\
  map (fun n => sget 5 (acks n (queue_sends 5 [65536; 65536; 16384] s))) [0; 1; 2; 3]%nat =
  [Some 16384; Some 65536; Some 65536; Some 16384].
Proof. cbv zeta. split; [vm_compute; reflexivity|]. split; [repeat constructor | vm_compute; reflexivity]. Qed.

Example C11_ex : lookup 4 [(4, 1000); (3, 5)] = Some 1000 /\ NoDup (map fst [(4, 1000); (3, 5)]).
Proof. split; [reflexivity|]. repeat constructor; cbn; intros H; intuition discriminate. Qed.

Print Assumptions C11_setitem.
Print Assumptions C11_one_frame_is_applied_by_one_acknowledgement.
Print Assumptions C11_fresh_settings_are_settled.
Print Assumptions C11_failing_update_settings_emits_nothing.
Print Assumptions C11_pending_values_are_not_in_force.
Print Assumptions C11_same_identifier_acknowledged_in_order.
Print Assumptions C11_same_identifier_settles_on_the_last_value.
