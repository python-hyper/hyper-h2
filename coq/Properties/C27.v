(* C27 — Peer-controlled retained state stays bounded. *)
From H2 Require Import Base.Prelude Base.PyDict Model.FsmTypes Gen.Consts Model.Types Model.Headers Model.ConnState
  Model.Connection Model.FrameBuffer Model.Settings Proofs.C18Proofs Proofs.C23Proofs Proofs.C27Proofs
  Proofs.C21Proofs Proofs.ConnPrims Gen.Tables.

(* the memory of closed streams never exceeds MAX_CLOSED_STREAMS, for every history of calls and frames
   (induction over all operations, no bound on length; the eviction test is extracted from SizeLimitDict) *)
Theorem C27_closed_stream_memory_is_capped :
  forall cfg os, zlen (c_closed (run (conn_new cfg) os)) <= MAX_CLOSED_STREAMS.
Proof. intros cfg os. exact (closed_streams_memory_bounded os _ (closed_bounded_init cfg)). Qed.

(* frames that do not open streams allocate no stream state: PRIORITY on any id (the whole state is unchanged) *)
Theorem C27_priority_allocates_nothing :
  forall sid p c c' r, c_state c <> C_CLOSED -> recv_priority sid p c = (c', r) -> c' = c.
Proof. exact recv_priority_state_unchanged. Qed.

(* RST_STREAM and WINDOW_UPDATE on idle / closed / never-used ids, unknown frame types *)
Theorem C27_rst_stream_on_unknown_stream_allocates_nothing :
  forall sid code c c' r, dget sid (c_streams c) = None -> recv_rst_stream sid code c = (c', r) ->
    c_streams c' = c_streams c /\ c_closed c' = c_closed c.
Proof.
  intros sid code c c' r Hn H. unfold recv_rst_stream, bind, get in H. rewrite cfsm_eq in H.
  destruct (conn_transition _ _); [|injection H as <- _; split; reflexivity].
  cbn [c_streams cset_state] in H. rewrite Hn in H. injection H as <- _. split; reflexivity.
Qed.
Theorem C27_window_update_on_unknown_stream_allocates_nothing :
  forall sid inc c c' r, sid <> 0 -> dget sid (c_streams c) = None -> recv_window_update sid inc c = (c', r) ->
    c_streams c' = c_streams c /\ c_closed c' = c_closed c.
Proof.
  intros sid inc c c' r Hz Hn H. unfold recv_window_update in H. unfold bind at 1 in H. rewrite cfsm_eq in H.
  destruct (conn_transition _ _); [|injection H as <- _; split; reflexivity].
  destruct (sid =? 0) eqn:E; [lia|]. cbn [negb] in H. rewrite lookup_unknown in H by exact Hn.
  unfold lookup_error in H. destruct (_ >? _) in H; injection H as <- _; split; reflexivity.
Qed.
Theorem C27_unknown_frame_types_change_nothing :
  forall ft sid c, dispatch (RUnknown ft sid) c = (c, Ok ([], [EUnknownFrameReceived ft])).
Proof. intros ft sid c. reflexivity. Qed.

(* decoded header lists larger than the acknowledged MAX_HEADER_LIST_SIZE are refused with ENHANCE_YOUR_CALM *)
Theorem C27_oversized_header_list_is_refused :
  forall hs c, hl_size hs > c_dec_max_hls c -> snd (decode_headers (HDecoded hs) c) = Err DenialOfServiceError 11 0 false.
Proof. exact oversized_header_list_is_enhance_your_calm. Qed.

(* the frames of an unfinished header block (HEADERS / PUSH_PROMISE + CONTINUATIONs) held by the frame buffer never exceed
   CONTINUATION_BACKLOG, for every byte string, every parser and every receiver, as long as receive_data does not raise *)
Theorem C27_header_block_backlog_is_capped :
  forall parse_hdr parse_body (S E : Type) (limit : S -> Z) (consume : S -> wframe -> S * option E) n s h d s1 e h1 r,
    zlen h <= CONTINUATION_BACKLOG -> drain parse_hdr parse_body S E limit consume n s h d = (s1, e, (h1, r)) ->
    (forall x, e <> Some (inl x)) -> zlen h1 <= CONTINUATION_BACKLOG.
Proof. exact header_buffer_bounded. Qed.

Print Assumptions C27_closed_stream_memory_is_capped.
Print Assumptions C27_header_block_backlog_is_capped.
Print Assumptions C27_priority_allocates_nothing.
Print Assumptions C27_rst_stream_on_unknown_stream_allocates_nothing.
Print Assumptions C27_window_update_on_unknown_stream_allocates_nothing.
Print Assumptions C27_unknown_frame_types_change_nothing.
Print Assumptions C27_oversized_header_list_is_refused.

(* header blocks longer than the CONTINUATION limit are refused: once CONTINUATION_BACKLOG frames are held, the next frame
   (a CONTINUATION with or without END_HEADERS, or anything else) raises ProtocolError *)
Theorem C27_long_header_block_is_refused :
  forall h f, h <> [] -> zlen h >= CONTINUATION_BACKLOG -> exists h', update_header_buffer h f = inl (EProtocol, h').
Proof. exact long_block_refused. Qed.
Print Assumptions C27_long_header_block_is_refused.

(* the caps the peer is held to follow the acknowledged settings: when a SETTINGS ACK has been processed and its
   changes [ch] contain MAX_HEADER_LIST_SIZE, the decoder's cap IS the new value (otherwise it is untouched), and
   likewise MAX_FRAME_SIZE for the frame buffer — whatever else the same acknowledgement changes
   (INITIAL_WINDOW_SIZE, several keys at once).  Together with C27_oversized_header_list_is_refused: a header list
   above the acknowledged MAX_HEADER_LIST_SIZE is refused from that point on. *)
Theorem C27_acknowledged_caps_are_in_force :
  forall c c' ch, local_settings_acked c = (c', Ok ch) ->
    c_dec_max_hls c' = match changed_lookup SC_MAX_HEADER_LIST_SIZE ch with Some (_, new) => new | None => c_dec_max_hls c end /\
    c_max_in_frame c' = match changed_lookup SC_MAX_FRAME_SIZE ch with Some (_, new) => new | None => c_max_in_frame c end.
Proof.
  intros c c' ch H. unfold local_settings_acked in H.
  apply bind_ok in H as (c1 & ch1 & E1 & H). apply bind_ok in H as (c2 & [] & E2 & H).
  (* the INITIAL_WINDOW_SIZE step writes the stream table only, acknowledging the local settings only *)
  assert (K : exists ss, c2 = cset_streams c1 ss).
  { destruct (changed_lookup SC_INITIAL_WINDOW_SIZE ch1) as [[old new]|].
    - destruct (for_streams_spec _ _ _ _ E2) as (ss & -> & _). eauto.
    - injection E2 as <-. exists (c_streams c1). destruct c1; reflexivity. }
  destruct K as [ss ->]. rewrite lift_local_eq in E1. injection E1 as <- _. unfold bind, modify, ret in H.
  destruct (changed_lookup SC_MAX_HEADER_LIST_SIZE ch1) as [[o1 n1]|] eqn:E1, (changed_lookup SC_MAX_FRAME_SIZE ch1) as [[o2 n2]|] eqn:E3;
    injection H as <- <-; rewrite E1, E3; split; reflexivity.
Qed.
Print Assumptions C27_acknowledged_caps_are_in_force.
