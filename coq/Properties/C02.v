(* C02 — Emitted bytes are well-formed HTTP/2 that encode exactly the calls. *)
From H2 Require Import Base.Prelude Model.FsmTypes Model.Types Model.Stream Model.ConnState Model.Connection
  Proofs.C02Proofs Proofs.C26Proofs.

(* every call ends in _prepare_for_sending: it appends exactly the frames it is given, and returns normally only if every one of
   them fits the peer's MAX_FRAME_SIZE in force *)
Theorem C02_prepare_for_sending_spec :
  forall fs c c',
  prepare_for_sending fs c = (c', Ok tt) ->
  c' = cset_out c (c_out c ++ fs) /\ forallb (fun f => body_len f <=? c_max_out_frame c) fs = true.
Proof. exact ConnPrims.prepare_for_sending_spec. Qed.

Theorem C02_header_block_is_contiguous :
  forall cfg f hs L s consumed frames first_es first_prio,
  build_headers_frames cfg f hs L (fun eh h c => FHeaders (s_id s) first_es eh first_prio h c) s = (consumed, Ok frames) ->
  block_ok frames = true.
Proof. intros cfg f hs L s consumed frames first_es first_prio. apply block_is_contiguous. reflexivity. Qed.

Theorem C02_push_promise_block_is_contiguous :
  forall cfg f hs L s promised consumed frames,
  build_headers_frames cfg f hs L (fun eh h c => FPushPromise (s_id s) promised eh h c) s = (consumed, Ok frames) ->
  block_ok frames = true.
Proof. intros cfg f hs L s promised consumed frames. apply block_is_contiguous. reflexivity. Qed.

Theorem C02_header_fragments_fit_and_add_up :
  forall L mx,
  0 < mx ->
  Forall (fun c => 0 < c <= mx) (header_blocks L mx) /\ fold_right Z.add 0 (header_blocks L mx) = Z.max L 0.
Proof.
  intros L mx Hmx. unfold header_blocks. rewrite Z.max_l by lia. apply chunks_spec; [exact Hmx | lia].
Qed.

(* each successful call appends exactly the frames it specifies (a selection; the others are covered by the
   correspondence run, which compares the whole output structure after every call) *)
Theorem C02_ping_appends_one_ping :
  forall pl c,
  zlen pl = 8 -> c_state c <> C_CLOSED -> 8 <= c_max_out_frame c ->
  api_ping pl c = (cset_out c (c_out c ++ [FPing false pl]), Ok tt).
Proof. exact api_ping_ok. Qed.

Theorem C02_close_connection_appends_one_goaway :
  forall code last dbg c c',
  api_close_connection code last dbg c = (c', Ok tt) ->
  c_out c' = c_out c ++ [FGoAway (match last with Some l => l | None => c_hi_in c end) code dbg] /\ 8 + dbg <= c_max_out_frame c.
Proof.
  intros code last dbg c c'. rewrite close_connection_closed_form. destruct (8 + dbg <=? c_max_out_frame c) eqn:E; [|discriminate].
  intros [= <-]. split; [destruct last; reflexivity | lia].
Qed.

Print Assumptions C02_prepare_for_sending_spec.
Print Assumptions C02_header_block_is_contiguous.
Print Assumptions C02_push_promise_block_is_contiguous.
Print Assumptions C02_header_fragments_fit_and_add_up.
Print Assumptions C02_ping_appends_one_ping.
Print Assumptions C02_close_connection_appends_one_goaway.

(* over EVERY history of calls and received frames the peer's MAX_FRAME_SIZE in force stays >= 2^14 (every value ever queued for the
   peer's settings passed validation): the fixed-size frames the library emits on its own always fit *)
From H2 Require Import Proofs.MfsInv.
Theorem C02_peer_frame_size_limit_never_below_the_minimum :
  forall cfg os, 16384 <= c_max_out_frame (run (conn_new cfg) os).
Proof. exact frame_size_limit_after_any_history. Qed.
Print Assumptions C02_peer_frame_size_limit_never_below_the_minimum.
