(* C11 — the per-frame matching of acknowledgements is false of the code (per-key queues): known findings. *)
From H2 Require Import Base.Prelude Model.Types Model.ConnState Model.Connection.
Definition cfgc := mkconfig true true true true true false.
Definition ack := OReceive [(RSettings true [], 0)].

(* F-C11-1: two update_settings calls before the first ACK: the ACK of the INITIAL frame applies and reports both *)
Theorem C11_first_ack_applies_later_frames_refuted :
  let c := run (conn_new cfgc) [OInitiate; OUpdateSettings [(4, 1000)]; OUpdateSettings [(3, 5)]] in
  snd (step c ack) = Ok (AEvents [ESettingsAcknowledged [(4, Some 65535, 1000); (3, Some 100, 5)]]).
Proof. vm_compute. reflexivity. Qed.

(* F-C11-2: update_settings raises on its second pair, the first pair stays queued and is applied by a later ACK *)
Theorem C11_failing_update_keeps_earlier_pairs_refuted :
  let c0 := run (conn_new cfgc) [OInitiate] in
  let c1 := fst (step c0 (OUpdateSettings [(4, 100); (2, 5)])) in
  snd (step c0 (OUpdateSettings [(4, 100); (2, 5)])) = Err InvalidSettingsValueError 1 0 false /\
  c_local c1 <> c_local c0 /\
  snd (step c1 ack) = Ok (AEvents [ESettingsAcknowledged [(4, Some 65535, 100)]]).
Proof. vm_compute. repeat split; try reflexivity. intros H; discriminate. Qed.

(* F-C11-3: an unknown identifier above 255 goes on the wire as a different, known identifier *)
Theorem C11_identifier_truncated_on_the_wire_refuted :
  let c := run (conn_new cfgc) [OInitiate; ODrain; OUpdateSettings [(258, 1)]] in
  c_out c = [FSettings false [(2, 1)]].
Proof. vm_compute. reflexivity. Qed.

Print Assumptions C11_first_ack_applies_later_frames_refuted.
Print Assumptions C11_failing_update_keeps_earlier_pairs_refuted.
Print Assumptions C11_identifier_truncated_on_the_wire_refuted.
