(* C03 — Outbound DATA never exceeds the peer's flow-control windows.
   Statements over the connection model (Model/Connection.v).  [run (conn_new cfg) ops]: the state
   after any finite program of API calls and received frames; [api_send_data] is H2Connection.send_data.
   The two comparisons in send_data are the functions g_send_data_flow / g_send_data_frame extracted from
   /repo's connection.py on this run (Gen/Guards.v). *)
From H2 Require Import Base.Prelude Base.PyDict Gen.Consts Gen.Guards Model.Types Model.Stream Model.ConnState
  Model.Connection Model.Windows Proofs.C03Proofs Proofs.ConstFacts Proofs.ConnPrims Proofs.Frame Proofs.FrameConn.

(* every history: the connection-level send window never goes negative, i.e. the flow-controlled
   total of all DATA emitted never exceeds 65535 plus the WINDOW_UPDATE(0) increments accepted *)
Theorem C03_connection_window_never_negative :
  forall cfg ops, Forall wf_op ops -> 0 <= c_out_win (run (conn_new cfg) ops).
Proof. intros cfg ops H. exact (proj1 (run_inv03b ops _ (inv03b_init cfg) H)). Qed.

(* a DATA frame is emitted only if its flow-controlled length (padding + 1 included) fits the
   stream window, the connection window and the peer's MAX_FRAME_SIZE as they were before the call *)
Theorem C03_emitted_data_fits_both_windows :
  forall sid len es pad c c', api_send_data sid len es pad c = (c', Ok tt) ->
    exists s, dget sid (c_streams c) = Some s /\
      fs_of len pad <= c_out_win c /\ fs_of len pad <= s_out_win s /\ fs_of len pad <= c_max_out_frame c.
Proof.
  intros sid len es pad c c' H. apply send_data_writes with (R := fun _ _ => True) in H; auto.
  destruct H as (c1 & _ & _ & [[_ Hr] | [_ Hs]]); [discriminate Hr | exact Hs].
Qed.

(* local_flow_control_window reports the smaller of the two windows *)
Theorem C03_local_window_is_the_minimum :
  forall sid c s, dget sid (c_streams c) = Some s ->
    local_flow_control_window sid c = (c, Ok (Z.min (c_out_win c) (s_out_win s))).
Proof. exact lfcw_live. Qed.

(* one byte more than that: FlowControlError, and the state (hence the output) is untouched *)
Theorem C03_one_byte_more_is_refused_and_changes_nothing :
  forall sid len es pad c s, dget sid (c_streams c) = Some s -> pad_ok pad ->
    fs_of len pad > Z.min (c_out_win c) (s_out_win s) ->
    api_send_data sid len es pad c = (c, Err FlowControlError 3 0 false).
Proof.
  intros sid len es pad c s Hs Hp Hgt. unfold api_send_data.
  rewrite (pad_guard_false pad Hp), bind_ret, (bind_ok_eq _ _ _ _ _ (lfcw_live sid c s Hs)), bind_get.
  unfold g_send_data_flow. fold (fs_of len pad). destruct (fs_of len pad >? _) eqn:E; [reflexivity | lia].
Qed.

(* the connection window changes in exactly two ways: send_data subtracts what it emitted ... *)
Theorem C03_send_data_effect_on_connection_window :
  forall sid len es pad c c' r, api_send_data sid len es pad c = (c', r) ->
    c_out_win c' = c_out_win c \/ (c_out_win c' = c_out_win c - fs_of len pad /\ fs_of len pad <= c_out_win c).
Proof.
  intros sid len es pad c c' r H. apply send_data_writes with (R := fun _ _ => True) in H; auto.
  destruct H as (c1 & _ & E & [[-> _] | [-> (s & _ & Hn & _)]]); [left; exact E | right; split; [reflexivity | exact Hn]].
Qed.

(* ... and a received WINDOW_UPDATE adds its increment, never beyond 2^31-1; no other frame touches it *)
Theorem C03_received_frame_effect_on_connection_window :
  forall f c c' r, dispatch f c = (c', r) ->
    c_out_win c' = c_out_win c \/
    (exists sid inc, f = RWindowUpdate sid inc /\ c_out_win c' = c_out_win c + inc /\ c_out_win c + inc <= 2147483647).
Proof.
  intros f c c' r H.
  assert (K : match f with RWindowUpdate 0 _ => False | _ => True end -> c_out_win c' = c_out_win c).
  { (* of the writes of FrameConn only the last one touches the window, and it is a WINDOW_UPDATE(0)'s *)
    intros Hf. revert H. apply k_dispatch with (R := peq c_out_win) (wf := fun f => match f with RWindowUpdate 0 _ => False | _ => True end);
      [unread.. | intros ? ? [] | exact Hf]. }
  destruct f; try (left; exact (K Logic.I)). destruct sid; try (left; exact (K Logic.I)).
  pose proof LARGEST_val as Lv. destruct (conn_window_update_writes _ _ _ _ H) as [-> | [Hn ->]]; [left; reflexivity | right].
  exists 0, inc. split; [reflexivity | split; [reflexivity | lia]].
Qed.

(* a change of the peer's INITIAL_WINDOW_SIZE (old -> new) that succeeds is added to the send window of
   EVERY stream in the table, whatever its state (reserved and closed-not-yet-reaped ones included): same
   ids in the same order, each window moved by exactly new - old (possibly below zero, RFC 7540 6.9.2), none
   above 2^31-1, and nothing but the stream table changes *)
Theorem C03_initial_window_size_delta_reaches_every_stream :
  forall old new c c', flow_control_change_from_settings old new c = (c', Ok tt) ->
    c' = cset_streams c (c_streams c') /\
    map fst (c_streams c') = map fst (c_streams c) /\
    forall sid s, dget sid (c_streams c) = Some s ->
      dget sid (c_streams c') = Some (set_out_win s (s_out_win s + (new - old))) /\
      s_out_win s + (new - old) <= LARGEST_FLOW_CONTROL_WINDOW.
Proof.
  intros old new c c' H. destruct (for_streams_spec _ _ _ _ H) as (ss & -> & Hk & Hv). specialize (Hv eq_refl). change (c_streams (cset_streams c ss)) with ss.
  split; [reflexivity|]. split; [exact Hk|]. intros sid s Hs. destruct (Hv sid s Hs) as (s' & Ef & ->).
  unfold guard_increment_window, fc_err in Ef. destruct (_ >? _) eqn:E; [discriminate|]. injection Ef as <-. split; [reflexivity | lia].
Qed.

(* non-vacuity: a client that opened stream 1 can send exactly its window *)
Definition ex_cfg := mkconfig true true true true true false.
Definition ex_req : list hitem :=
  [([58;109;101;116;104;111;100], [71;69;84], false); ([58;112;97;116;104], [47], false);
   ([58;115;99;104;101;109;101], [104;116;116;112;115], false); ([58;97;117;116;104;111;114;105;116;121], [97], false)].
Example C03_ex_exact_window :
  let c := run (conn_new ex_cfg) [OInitiate; OSendHeaders 1 ex_req 10 false None None None;
                                   OReceive [(RSettings false [(5, 65535)], 6)]] in
  snd (step c (OLocalWindow 1)) = Ok (AZ 65535) /\
  snd (step c (OSendData 1 65535 false None)) = Ok ANone /\
  snd (step c (OSendData 1 65536 false None)) = Err FlowControlError 3 0 false.
Proof. vm_compute. repeat split. Qed.

(* non-vacuity of the delta theorem on a stream that is not open: a server reserves stream 2 by a push, the
   peer lowers INITIAL_WINDOW_SIZE to 100, the pushed stream is then activated: its window is 100, 100 bytes go
   out and 101 are refused *)
Definition ex_cfgs := mkconfig false true true true true false.
Definition ex_resp : list hitem := [([58;115;116;97;116;117;115],[50;48;48],false)].
Example C03_ex_reserved_stream_follows_the_delta :
  let c := run (conn_new ex_cfgs)
             [OInitiate; OReceive [(RSettings false [], 0); (RHeaders 1 false None (HDecoded ex_req), 10)];
              OPushStream 1 2 ex_req 10; OReceive [(RSettings false [(4, 100)], 6)];
              OSendHeaders 2 ex_resp 1 false None None None] in
  snd (step c (OLocalWindow 2)) = Ok (AZ 100) /\
  snd (step c (OSendData 2 100 false None)) = Ok ANone /\
  snd (step c (OSendData 2 101 false None)) = Err FlowControlError 3 0 false.
Proof. vm_compute. repeat split. Qed.

Print Assumptions C03_connection_window_never_negative.
Print Assumptions C03_emitted_data_fits_both_windows.
Print Assumptions C03_local_window_is_the_minimum.
Print Assumptions C03_one_byte_more_is_refused_and_changes_nothing.
Print Assumptions C03_send_data_effect_on_connection_window.
Print Assumptions C03_received_frame_effect_on_connection_window.
Print Assumptions C03_initial_window_size_delta_reaches_every_stream.
