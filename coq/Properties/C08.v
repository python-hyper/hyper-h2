(* C08 — The library refuses to emit messages that violate HTTP/2 message rules. *)
From H2 Require Import Base.Prelude Model.FsmTypes Gen.Tables Model.StreamFSM Proofs.FsmReach Proofs.C0708Proofs.
From H2 Require Import Base.PyDict Model.ConnState Model.Connection Proofs.C29Proofs Proofs.RoleInv.

(* After ANY sequence of inputs, the stream state machine:
   - refuses SEND_HEADERS once trailers were sent, and informational headers once the final response was sent;
   - treats the second header block as trailers (H2Stream.send_headers then insists on END_STREAM);
   - on a stream we opened as a client: never sends a response, a PUSH_PROMISE or an ALTSVC;
   - produces RequestSent only from the idle state (a request is what opens a stream);
   - refuses HEADERS, DATA, END_STREAM, 1xx and PUSH_PROMISE once we ended the stream (half-closed local / closed). *)
Theorem C08_send_rules_after_any_history :
  forall is, c08_all (run_inputs sm_new is) = true.
Proof. intros is. apply reach_forall. vm_compute. reflexivity. Qed.

(* the role gate of the connection state machine (table regenerated from the code) *)
Theorem C08_role_gate :
  conn_transition C_CLIENT_OPEN CI_SEND_PUSH_PROMISE = None /\ conn_transition C_CLIENT_OPEN CI_SEND_ALTERNATIVE_SERVICE = None /\
  conn_transition C_CLIENT_OPEN CI_RECV_PUSH_PROMISE = Some C_CLIENT_OPEN /\ conn_transition C_SERVER_OPEN CI_RECV_PUSH_PROMISE = None.
Proof. repeat split; reflexivity. Qed.

(* Only clients open streams by sending headers (fix 12650a7): on a server, send_headers for an id that is not in the
   stream table raises exactly the lookup error (NoSuchStreamError above the watermark, StreamClosedError at or below)
   and changes NOTHING (the state is returned unchanged: no stream object, no connection transition, nothing encoded or
   emitted); hence a successful send_headers on a server found its stream (opened by the client, or promised). *)
Theorem C08_a_server_cannot_open_a_stream_with_send_headers :
  forall sid hs L es pw pd pe c, client c = false -> dget sid (c_streams c) = None ->
    api_send_headers sid hs L es pw pd pe c = (c, unknown_stream_error c sid).
Proof. exact server_send_headers_unknown. Qed.
Theorem C08_a_successful_server_send_headers_found_its_stream :
  forall sid hs L es pw pd pe c c', client c = false ->
    api_send_headers sid hs L es pw pd pe c = (c', Ok tt) -> dmem sid (c_streams c) = true.
Proof. exact server_send_headers_ok_known. Qed.

(* The role gate at connection level, over EVERY history of API calls and received frames: the connection state machine
   never reaches the other role's open state (a client is never SERVER_OPEN, a server never CLIENT_OPEN, between any two
   operations), and a connection that is still IDLE holds no stream object.  With the regenerated connection table (a
   client-side state machine refuses SEND_PUSH_PROMISE, a server-side one RECV_PUSH_PROMISE) this is "a client can never
   push" and "a server never accepts a push" for all reachable states. *)
Theorem C08_connection_state_agrees_with_the_role :
  forall cfg os, let c := run (conn_new cfg) os in
    (client c = true -> c_state c <> C_SERVER_OPEN) /\ (client c = false -> c_state c <> C_CLIENT_OPEN) /\
    (c_state c = C_IDLE -> c_streams c = [] /\ c_closed c = []).
Proof. exact connection_state_agrees_with_the_role. Qed.

Print Assumptions C08_send_rules_after_any_history.
Print Assumptions C08_role_gate.
Print Assumptions C08_a_server_cannot_open_a_stream_with_send_headers.
Print Assumptions C08_a_successful_server_send_headers_found_its_stream.
Print Assumptions C08_connection_state_agrees_with_the_role.
