(* C13 — Header compression state stays synchronised across all calls. *)
From H2 Require Import Base.Prelude Model.Headers Model.Stream Proofs.C13Proofs Proofs.C02Proofs.

(* The compression context of the library is a function of the sequence of header lists handed to Encoder.encode, the peer's of the
   sequence of header blocks emitted.  For EVERY header list, configuration, flag and stream state:
   a send_headers / push_stream call that returns normally handed exactly one list to the encoder; that list is what the emitted
   HEADERS / PUSH_PROMISE (+ CONTINUATION) block carries, and it is the output of the normalisation and validation pipeline on the
   complete input — so the two contexts advance by the same list. *)
Theorem C13_successful_send_headers_keeps_contexts_in_step :
  forall cfg hs L es s s' frames e, send_headers cfg hs L es s = (s', (Ok frames, e)) ->
    exists consumed f, e = Some consumed /\ block_of frames = Some consumed /\ outbound_pipeline cfg f hs = (consumed, PAll).
Proof. exact send_headers_success_is_synchronised. Qed.
Theorem C13_successful_push_keeps_contexts_in_step :
  forall cfg promised hs L s s' frames e, push_stream_in_band cfg promised hs L s = (s', (Ok frames, e)) ->
    exists consumed f, e = Some consumed /\ block_of frames = Some consumed /\ outbound_pipeline cfg f hs = (consumed, PAll).
Proof.
  intros cfg promised hs L s s' frames e.
  unfold push_stream_in_band. destruct (fsm _ s) as [s1 [evs| |]]; try discriminate.
  destruct (build_flags evs) as [f| |]; try discriminate.
  destruct (build_headers_frames cfg f hs L _ s1) as [consumed rf] eqn:B.
  intros H. injection H as _ -> <-. exists consumed, f.
  destruct (build_shape _ _ _ _ _ _ _ _ B) as (Hp & c & [-> | (c2 & l & ->)]); auto.
Qed.

(* a call that left the encoder untouched did not emit anything *)
Theorem C13_no_block_without_encoding :
  forall cfg hs L es s s' r, send_headers cfg hs L es s = (s', (r, None)) -> forall fr, r <> Ok fr.
Proof. intros cfg hs L es s s' r H fr ->. destruct (send_headers_success_is_synchronised _ _ _ _ _ _ _ _ H) as (? & ? & [=] & _). Qed.

(* "a call that raises leaves the compression context as if it had never been made" is false of the faithful model: the two
   witnesses of Properties/C13_refuted.v (known finding F-C13-1). *)

Print Assumptions C13_successful_send_headers_keeps_contexts_in_step.
Print Assumptions C13_successful_push_keeps_contexts_in_step.
Print Assumptions C13_no_block_without_encoding.
