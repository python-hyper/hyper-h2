(* C25 — h2c upgrade hands over settings and stream 1 consistently. *)
From H2 Require Import Base.Prelude Model.FsmTypes Model.Types Model.StreamFSM Model.Stream Model.Connection
  Proofs.C0708Proofs.

(* stream 1 after the upgrade: half-closed (local) on the client, half-closed (remote) on the server; the client's role flags
   are those of a stream whose request was sent, the server's those of a received request *)
Theorem C25_upgrade_states :
  let c := fst (process_input 1 sm_new SI_UPGRADE_CLIENT) in let s := fst (process_input 1 sm_new SI_UPGRADE_SERVER) in
  sm_state c = S_HALF_CLOSED_LOCAL /\ sm_client c = Some true /\ sm_hs c = true /\
  sm_state s = S_HALF_CLOSED_REMOTE /\ sm_client s = Some false /\ sm_hr s = true.
Proof. vm_compute. repeat split; reflexivity. Qed.

(* neither side can send a request body on it; the server can answer, the client can receive the answer *)
Theorem C25_upgraded_stream_capabilities :
  let c := fst (process_input 1 sm_new SI_UPGRADE_CLIENT) in let s := fst (process_input 1 sm_new SI_UPGRADE_SERVER) in
  accepted c SI_SEND_DATA = false /\ accepted c SI_SEND_HEADERS = false /\ accepted c SI_SEND_END_STREAM = false /\
  accepted c SI_RECV_HEADERS = true /\ accepted c SI_RECV_DATA = false /\
  accepted (fst (process_input 1 c SI_RECV_HEADERS)) SI_RECV_DATA = true /\
  accepted s SI_SEND_HEADERS = true /\ accepted s SI_RECV_DATA = false /\ accepted s SI_RECV_HEADERS = false.
Proof. vm_compute. repeat split; reflexivity. Qed.

(* the server's view of the client's settings: the HTTP2-Settings payload is applied through the same path as a SETTINGS frame *)
Theorem C25_upgrade_applies_client_settings_like_a_settings_frame :
  forall vals c,
  client (fst (initiate_connection c)) = false ->
  api_initiate_upgrade (Some vals) c =
  (initiate_connection ;;; (recv_settings false vals ;;; ret tt) ;;; cfsm CI_RECV_HEADERS ;;; begin_new_stream 1 1 ;;;
   with_stream 1 (upgrade false) ;;; ret []) c.
Proof.
  intros vals c Hc. unfold api_initiate_upgrade, bind, get. destruct (initiate_connection c) as [c1 [u| |]]; try reflexivity.
  (* with the role known the two sides compute to the same term: the left one reads the state once more at its end, for nothing *)
  cbn [fst] in Hc. rewrite Hc. reflexivity.
Qed.

Print Assumptions C25_upgrade_states.
Print Assumptions C25_upgraded_stream_capabilities.
Print Assumptions C25_upgrade_applies_client_settings_like_a_settings_frame.
