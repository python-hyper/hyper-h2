(* C21 — Results do not depend on how bytes are split. *)
From H2 Require Import Base.Prelude Model.Types Model.FrameBuffer Model.ConnState Model.Connection Proofs.C21Proofs
  Proofs.C21Conn.

(* Inbound, bytes.  [feed] is receive_data called once per chunk: the chunk is appended to the buffer and every frame
   that is complete is handed to the receiver [consume] (any state S, any reaction: H2Connection._receive_frame with
   its HPACK decoder, stream table, settings...), which may change the frame-size limit [limit s] between any two
   frames; it stops at the first exception, raised by the buffer (inl) or by the receiver (inr).
   For every parser of frame headers and bodies, every receiver, every byte string and any two ways of cutting it
   (frames, headers, CONTINUATION sequences cut anywhere; empty chunks; one byte at a time): the receiver ends in the
   same state — it saw the same frames in the same order, so emitted the same bytes and events —, the same
   exception is raised at the same frame, and the same bytes and partial header block are left in the buffer. *)
Theorem C21_inbound_chunking_is_irrelevant :
  forall parse_hdr parse_body (S E : Type) (limit : S -> Z) (consume : S -> wframe -> S * option E) (s : S) cs1 cs2,
    concat cs1 = concat cs2 ->
    feed parse_hdr parse_body S E limit consume s [] [] cs1 = feed parse_hdr parse_body S E limit consume s [] [] cs2.
Proof. exact any_two_chunkings. Qed.

(* ... and both equal one call on the whole byte string, from any state a previous call returned normally from *)
Theorem C21_inbound_chunked_equals_whole :
  forall parse_hdr parse_body (S E : Type) (limit : S -> Z) (consume : S -> wframe -> S * option E) cs s h buf,
    drain_all parse_hdr parse_body S E limit consume s h buf = (s, None, (h, buf)) ->
    feed parse_hdr parse_body S E limit consume s h buf cs = drain_all parse_hdr parse_body S E limit consume s h (buf ++ concat cs).
Proof. exact chunking_irrelevant. Qed.

(* the client preface: checking it piece by piece accepts / rejects exactly as checking the concatenation, and leaves the same payload *)
Theorem C21_preface_chunking_is_irrelevant :
  forall cs pre, add_all_preface pre cs = add_data_preface pre (concat cs).
Proof.
  intros cs. induction cs as [|c cs IH]; intros pre; cbn [add_all_preface concat].
  - destruct pre; reflexivity.
  - rewrite add_data_preface_app. destruct (add_data_preface pre c) as [[pre' p1]|]; [|reflexivity].
    rewrite IH. reflexivity.
Qed.

(* Inbound, at the level of the connection model: receive_data called once per group of frames equals one call on all of
   them: same final connection state (output buffer included), same events in the same order, or the same exception
   with the same code at the same frame (the rest is only buffered). *)
Theorem C21_connection_receive_chunks :
  forall css c, c_inbuf c = [] -> receive_chunks css c = api_receive (concat css) c.
Proof. exact receive_chunks_is_receive_once. Qed.

(* Outbound: any sequence of data_to_send(amount) calls (amount None, zero, positive, larger than the buffer, negative)
   returns pieces whose concatenation, followed by what a final data_to_send() returns, is the original buffer. *)
Theorem C21_data_to_send_partitions :
  forall amounts buf, let '(xs, rest) := reads amounts buf in concat xs ++ fst (data_to_send None rest) = buf.
Proof. intros amounts buf. pose proof (reads_partition amounts buf) as P. destruct (reads amounts buf) as [xs rest]. exact P. Qed.

(* non-vacuity: a concrete stream (SETTINGS, then HEADERS without END_HEADERS + CONTINUATION) cut in two different ways *)
Example C21_example :
  let ph (h : bytes) := match h with
                        | [a; b; c; ty; fl; _; _; _; sid] => Some (Z.to_nat c, ty, fl, sid)
                        | _ => None end in
  let pb (ty fl sid : Z) (d : bytes) := BOk d in
  let stream := [0;0;0;4;0;0;0;0;0] ++ [0;0;2;1;0;0;0;0;1;7;7] ++ [0;0;1;9;4;0;0;0;1;8] in
  feed ph pb (list wframe) Empty_set (fun _ => 16384) collect [] [] [] [firstn 12 stream; skipn 12 stream]
  = feed ph pb (list wframe) Empty_set (fun _ => 16384) collect [] [] [] (map (fun b => [b]) stream)
  /\ length (fst (fst (feed ph pb (list wframe) Empty_set (fun _ => 16384) collect [] [] [] [stream]))) = 2%nat.
Proof. vm_compute. split; reflexivity. Qed.

Print Assumptions C21_inbound_chunking_is_irrelevant.
Print Assumptions C21_inbound_chunked_equals_whole.
Print Assumptions C21_preface_chunking_is_irrelevant.
Print Assumptions C21_connection_receive_chunks.
Print Assumptions C21_data_to_send_partitions.
