(* C05 — refutations of the full statements on the faithful model.  Each witness is replayed on the
   implementation by the check (known findings F-C05-1, F-C05-2).  Kept apart from Properties/C05.v:
   if a repair of the code makes a witness fail, that is not a violation of the property. *)
From H2 Require Import Base.Prelude Model.Windows Model.WmHist Properties.C05.

(* ... and false in general: a manual increment to the limit followed by an INITIAL_WINDOW_SIZE
   increase lifts the maximum above 2^31-1, and the next automatic update follows it. *)
Definition C05_window_never_above_limit_full : Prop :=
  forall m os g, reached m os g -> wm_cur (g_w g) <= 2^31 - 1.
Theorem C05_window_never_above_limit_refuted :
  exists m os g, reached m os g /\ wm_cur (g_w g) > 2^31 - 1.
Proof.
  exists 65535, [Open (2147483647 - 65535); Consume 2147483647; Delta 100; Ack 2147483647].
  eexists. split; [split; [|split]|]; [lia | | vm_compute; reflexivity | vm_compute; reflexivity].
  vm_compute. repeat split; discriminate.
Qed.

(* ... and false once it is lowered (known finding): the update rule is not re-evaluated. *)
Definition C05_no_stall_full : Prop :=
  forall m os g, reached m os g -> g_A g = g_C g -> 0 < wm_max (g_w g) -> 0 < wm_cur (g_w g).
Theorem C05_no_stall_refuted :
  exists m os g, reached m os g /\ g_A g = g_C g /\ 0 < wm_max (g_w g) /\ wm_cur (g_w g) = 0.
Proof.
  exists 4, [Consume 1; Ack 1; Delta (-3)]. eexists.
  split; [split; [|split]|]; [lia | | vm_compute; reflexivity | vm_compute; repeat split].
  vm_compute. repeat split; discriminate.
Qed.

Print Assumptions C05_window_never_above_limit_refuted.
Print Assumptions C05_no_stall_refuted.
