(* C09 — "no larger than 2^31-1" is false for user-chosen ids (known finding F-C09-1). *)
From H2 Require Import Base.Prelude Model.Types Model.ConnState Model.Connection.
Definition cfgc := mkconfig true true true true true false.
Definition req : list hitem :=
  [([58;109;101;116;104;111;100],[71;69;84],false);([58;112;97;116;104],[47],false);
   ([58;115;99;104;101;109;101],[104;116;116;112;115],false);([58;97;117;116;104;111;114;105;116;121],[97],false)].
Definition C09_ids_bounded_full : Prop :=
  forall cfg os, c_hi_out (run (conn_new cfg) os) <= 2147483647.
Theorem C09_ids_bounded_refuted :
  let c := run (conn_new cfgc) [OInitiate; OSendHeaders 2147483649 req 10 false None None None] in
  c_hi_out c = 2147483649 /\ match c_out c with [_; FHeaders sid _ _ _ _ _] => sid = 2147483649 | _ => False end.
Proof. vm_compute. split; reflexivity. Qed.
Print Assumptions C09_ids_bounded_refuted.
