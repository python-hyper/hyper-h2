(* C15 — Inbound header validation accepts exactly the conformant header blocks. *)
From H2 Require Import Base.Prelude Model.Types Model.StreamFSM Model.Headers Model.Stream Spec.Rfc812 Proofs.C15Proofs.

Theorem C15_inbound_validation_accepts_exactly_the_conformant_blocks :
  forall cfg f hs,
  cfg_validate_in cfg = true -> hf_trailer f && hf_response f = false ->
  process_received_headers cfg f hs =
  if conformant (blk f) (delivered cfg hs) && forallb (decodable cfg) (delivered cfg hs) then Ok (delivered cfg hs) else perr.
Proof. exact inbound_validation_accepts_exactly_the_conformant_blocks. Qed.

(* with validation on, nothing but ProtocolError can come out, and what is delivered is the decoded block itself
   (cookie fields joined into one trailing never-indexed field when normalisation is on) *)
Theorem C15_inbound_refusal_is_protocol_error :
  forall cfg f hs,
  cfg_validate_in cfg = true -> hf_trailer f && hf_response f = false ->
  conformant (blk f) (delivered cfg hs) = false -> process_received_headers cfg f hs = perr.
Proof. intros cfg f hs Hv Hf Hc. rewrite (inbound_validation_accepts_exactly_the_conformant_blocks cfg f hs Hv Hf), Hc. reflexivity. Qed.

Theorem C15_inbound_delivery_is_the_decoded_block :
  forall cfg f hs,
  cfg_validate_in cfg = true -> hf_trailer f && hf_response f = false -> cfg_header_encoding cfg = false ->
  conformant (blk f) (delivered cfg hs) = true -> process_received_headers cfg f hs = Ok (delivered cfg hs).
Proof.
  intros cfg f hs Hv Hf He Hc. rewrite (inbound_validation_accepts_exactly_the_conformant_blocks cfg f hs Hv Hf), Hc.
  unfold decodable. rewrite He, (proj2 (forallb_forall _ _)); reflexivity.
Qed.

(* the flags H2Stream builds from the first event are never both set *)
Theorem C15_build_flags_exclusive :
  forall evs f,
  build_flags evs = Ok f -> hf_trailer f && hf_response f = false.
Proof. intros evs f. destruct evs as [|e evs]; [discriminate|]. cbn. intros H. injection H as <-. destruct e; reflexivity. Qed.

Print Assumptions C15_inbound_validation_accepts_exactly_the_conformant_blocks.
Print Assumptions C15_inbound_refusal_is_protocol_error.
Print Assumptions C15_inbound_delivery_is_the_decoded_block.
Print Assumptions C15_build_flags_exclusive.
