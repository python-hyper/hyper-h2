(* C18 — Every connection error emits exactly one GOAWAY with the RFC-mandated code.
   [api_receive] is receive_data; [ended_by_goaway c' code]: the final state is some state c1 reached inside the
   call, closed, with exactly one frame appended: GOAWAY(last_stream_id = highest inbound id of c1, code). *)
From H2 Require Import Base.Prelude Model.FsmTypes Gen.Consts Model.Types Model.Headers Model.ConnState
  Model.Connection Proofs.ConnPrims Proofs.C18Proofs Gen.Guards.

Theorem C18_receive_error_emits_exactly_one_goaway_with_the_exception_code :
  forall fs c c' e code sid rst, api_receive fs c = (c', Err e code sid rst) -> is_protocol_error e = true ->
    exists c1, c' = cset_out (cset_state c1 C_CLOSED) (c_out c1 ++ [FGoAway (c_hi_in c1) code 0]).
Proof.
  intros fs c c' e code sid rst H He. unfold api_receive in H.
  destruct (recv_core (c_inbuf c ++ fs) [] c) as [[c1 r1] rem] eqn:E. injection H as <- ->.
  destruct (loop_err_goaway _ _ _ _ _ _ _ _ _ E He) as [c0 ->].
  (* the GOAWAY is still the last thing in the state when the buffer is written back *)
  exists (cset_inbuf c0 rem). destruct c0; reflexivity.
Qed.

Theorem C18_terminate_connection_closed_form :
  forall code c, terminate_connection code c =
    (cset_out (cset_state c C_CLOSED) (c_out c ++ [FGoAway (c_hi_in c) code 0]),
     if 8 <=? c_max_out_frame c then Ok tt else Crash AssertionError).
Proof. exact terminate_closed_form. Qed.

(* the codes of the exception classes, read from the class attributes on this run *)
Theorem C18_error_codes_of_the_exception_classes :
  exn_code FrameTooLargeError = 6 /\ exn_code FrameDataMissingError = 6 /\ exn_code FlowControlError = 3 /\
  exn_code StreamClosedError = 5 /\ exn_code DenialOfServiceError = 11 /\ exn_code ProtocolError = 1 /\
  exn_code TooManyStreamsError = 1 /\ exn_code StreamIDTooLowError = 1 /\ exn_code InvalidBodyLengthError = 1 /\
  exn_code NoSuchStreamError = 1.
Proof. repeat split; reflexivity. Qed.

(* size violation -> FRAME_SIZE_ERROR; oversized header list -> ENHANCE_YOUR_CALM *)
Theorem C18_oversized_frame_is_rejected_as_too_large :
  forall f blen c, bad_stream_association f = false -> blen > c_max_in_frame c ->
    frame_buffer_check (c_max_in_frame c) f blen = FBReject RTooLarge.
Proof.
  intros f blen c Hb Hgt. unfold frame_buffer_check, g_fb_len. rewrite Hb.
  destruct (blen >? c_max_in_frame c) eqn:E; [reflexivity|lia].
Qed.

Theorem C18_oversized_header_list_is_enhance_your_calm :
  forall hs c, hl_size hs > c_dec_max_hls c -> snd (decode_headers (HDecoded hs) c) = Err DenialOfServiceError 11 0 false.
Proof. exact oversized_header_list_is_enhance_your_calm. Qed.

Print Assumptions C18_receive_error_emits_exactly_one_goaway_with_the_exception_code.
Print Assumptions C18_terminate_connection_closed_form.
Print Assumptions C18_error_codes_of_the_exception_classes.
Print Assumptions C18_oversized_frame_is_rejected_as_too_large.
Print Assumptions C18_oversized_header_list_is_enhance_your_calm.

(* in every state reachable by any history, _terminate_connection cannot trip the frame-size assertion: exactly one GOAWAY is
   appended and the call returns normally *)
From H2 Require Import Proofs.MfsInv.
Theorem C18_terminate_connection_always_succeeds :
  forall cfg os code,
    let c := run (conn_new cfg) os in
    terminate_connection code c = (cset_out (cset_state c C_CLOSED) (c_out c ++ [FGoAway (c_hi_in c) code 0]), Ok tt).
Proof.
  intros cfg os code c. apply terminate_ok. pose proof (frame_size_limit_after_any_history cfg os) as H. fold c in H. lia.
Qed.
Print Assumptions C18_terminate_connection_always_succeeds.
