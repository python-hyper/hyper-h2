(* C07 — Received events per stream follow the HTTP message grammar for the role. *)
From H2 Require Import Base.Prelude Model.FsmTypes Model.Types Model.StreamFSM Model.Stream Proofs.FsmReach
  Proofs.C0708Proofs.
From H2 Require Import Base.PyDict Model.ConnState Model.Connection Proofs.RoleOpen Gen.Guards Proofs.Wp
  Proofs.ConnPrims Proofs.FrameConn.
From H2 Require Proofs.C10Proofs.

(* After ANY sequence of inputs to a stream state machine (any length, accepted or refused, local or from the peer), the state
   it is in satisfies all of:
   - DataReceived is only produced once final headers were received;
   - a stream whose request came from the peer (server side) never produces ResponseReceived, InformationalResponseReceived or
     PushedStreamReceived; a stream we opened (client side) never produces RequestReceived;
   - once the peer ended the stream (half-closed remote / closed) no HEADERS, 1xx HEADERS or DATA is accepted;
   - informational responses only before the final one; exactly one RequestReceived / ResponseReceived, the next block is
     TrailersReceived, and only once;
   - StreamReset is produced at most once, and a closed stream produces no stream event at all afterwards.
   The reachable set is computed and proved closed inside Coq (Proofs/FsmReach.v): an invariant over all histories. *)
Theorem C07_event_grammar_after_any_history :
  forall is, c07_all (run_inputs sm_new is) = true.
Proof. intros is. apply reach_forall. vm_compute. reflexivity. Qed.

(* the event lists H2Stream returns: a related stream_ended event is the next element of the same list and carries the same
   stream id; trailers always carry stream_ended; an informational response never does *)
Theorem C07_header_events_link_to_later_events :
  forall cfg hs es s s' evs, receive_headers cfg hs es s = (s', Ok evs) -> ended_ok evs.
Proof. intros cfg hs es s s' evs. exact (wp_run _ _ _ _ _ _ _ (receive_headers_nc cfg hs es s)). Qed.
Theorem C07_data_events_link_to_later_events :
  forall len fclen es s s' evs, receive_data len fclen es s = (s', Ok evs) -> ended_ok evs.
Proof. intros len fclen es s s' evs H. exact (proj1 (wp_run _ _ _ _ _ _ _ (receive_data_nc len fclen es s) H)). Qed.

Example C07_example : In (run_inputs sm_new [SI_RECV_HEADERS; SI_RECV_DATA; SI_RECV_HEADERS; SI_RECV_END_STREAM]) reach /\
  sm_state (run_inputs sm_new [SI_RECV_HEADERS; SI_RECV_DATA; SI_RECV_HEADERS; SI_RECV_END_STREAM]) = S_HALF_CLOSED_REMOTE.
Proof. split; [apply reachable_from_new | reflexivity]. Qed.

(* A client never takes a HEADERS frame for a request (fix 09dbf89): in EVERY state of a client connection, a HEADERS
   frame that is accepted was for a stream already in the stream table (one the client opened, or one the server
   promised); a frame that would open a stream is refused. *)
Theorem C07_a_client_accepts_headers_only_on_known_streams :
  forall sid es p d c c' x, client c = true -> recv_headers sid es p d c = (c', Ok x) -> dmem sid (c_streams c) = true.
Proof.
  intros sid es p d c c' x Hc H. unfold dmem. destruct (dget sid (c_streams c)) eqn:E0; [reflexivity|exfalso].
  unfold recv_headers in H. unfold bind at 1, get at 1, dmem at 1 in H. rewrite E0 in H.
  apply bind_ok in H as (c1 & u1 & E1 & H). apply bind_ok in H as (c2 & hs & E2 & H). apply bind_ok in H as (c3 & u3 & E3 & H).
  (* the three steps write the tables through _open_streams, the decoder log and the connection state *)
  assert (U : unk sid c c3).
  { apply (unk_trans sid c c1); [|apply (unk_trans sid c1 c2)].
    - rewrite C10Proofs.inbound_check in E1. injection E1 as <- _. apply unk_reap.
    - exact (k_decode_headers _ (unk_refl sid) (unk_trans sid) (fun c v => unk_refl sid c) d _ _ _ E2).
    - exact (k_cfsm _ _ (fun c => unk_refl sid c) _ _ _ E3). }
  destruct U as [R1 R4]. rewrite <- R1 in Hc. unfold bind at 1, get at 1 in H.
  apply client_refuses_unknown_headers in H as (_ & co & i & b & [H | H]); [discriminate H|discriminate H|exact Hc|exact (R4 E0)].
Qed.

Print Assumptions C07_event_grammar_after_any_history.
Print Assumptions C07_header_events_link_to_later_events.
Print Assumptions C07_data_events_link_to_later_events.
Print Assumptions C07_a_client_accepts_headers_only_on_known_streams.
