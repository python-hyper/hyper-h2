(* C05 — Automatic window management never deadlocks and never over-credits.
   Statements about every history of the four operations hyper-h2 applies to a WindowManager
   (Model/WmHist.v), over the hand model that Proofs/GenEq.v proves equal to the functions translated
   from h2/windows.py on this run.  [wrun (gh_init m) os = Some g]: g is the state reached from a fresh
   manager of maximum m by the history os, every operation of which succeeded. *)
From H2 Require Import Base.Prelude Gen.Kernels Model.Windows Model.WmHist Proofs.GenEq Proofs.C05Proofs.

Definition reached (m : Z) (os : list wop) (g : gh) : Prop :=
  0 <= m <= 2^31 - 1 /\ wf_hist (gh_init m) os /\ wrun (gh_init m) os = Some g.

(* the kernels the theorems are about are the code's own *)
Theorem C05_kernels_are_the_code :
  (forall w n, k_window_consumed (wm_max w) (wm_cur w) (wm_bp w) n = (wm_tuple (fst (window_consumed w n)), snd (window_consumed w n))) /\
  (forall w n, k_window_opened (wm_max w) (wm_cur w) (wm_bp w) n = (wm_tuple (fst (window_opened w n)), snd (window_opened w n))) /\
  (forall w n, k_process_bytes (wm_max w) (wm_cur w) (wm_bp w) n = (wm_tuple (fst (process_bytes w n)), Ok (snd (process_bytes w n)))).
Proof. exact (conj geneq_window_consumed (conj geneq_window_opened geneq_process_bytes)). Qed.

(* Never over-credits: in every reachable state the increments emitted so far total at most the
   bytes acknowledged so far (hence prefix-wise), each is positive, and the advertised window
   never exceeds the manager's maximum.  All four operations, any interleaving, no bound. *)
Theorem C05_never_over_credits :
  forall m os g, reached m os g ->
    g_K g <= g_A g /\ Forall (fun i => 0 < i) (g_incs g) /\ wm_cur (g_w g) <= wm_max (g_w g).
Proof.
  intros m os g (Hm & Hw & Hr).
  pose proof (wrun_InvAll os _ _ (InvAll_init m (proj1 Hm)) Hw Hr) as (H1 & H2 & _ & _ & H5 & _ & H7).
  (* K + backlog <= A with a non-negative backlog *)
  split; [lia | exact (conj H7 H1)].
Qed.

(* Never above 2^31-1 — proved for histories without INITIAL_WINDOW_SIZE changes ... *)
Theorem C05_window_never_above_limit_partial :
  forall m os g, reached m os g -> no_delta os -> wm_cur (g_w g) <= 2^31 - 1.
Proof.
  intros m os g (Hm & Hw & Hr) Hn.
  assert (Hc : InvCeil (gh_init m)) by (unfold InvCeil, gh_init, wm_new; cbn [g_w wm_max]; lia).
  pose proof (wrun_InvCeil_no_delta os _ _ Hc Hw Hn Hr) as Hc'.
  pose proof (wrun_InvAll os _ _ (InvAll_init m (proj1 Hm)) Hw Hr) as (H1 & _). unfold InvCeil in Hc'. lia.
Qed.

(* No stall: all received bytes acknowledged and a positive maximum imply a positive window —
   proved for histories in which INITIAL_WINDOW_SIZE is never lowered ... *)
Theorem C05_no_stall_partial :
  forall m os g, reached m os g -> no_negative_delta os ->
    g_A g = g_C g -> 0 < wm_max (g_w g) -> 0 < wm_cur (g_w g).
Proof.
  intros m os g (Hm & Hw & Hr) Hn.
  exact (proj2 (wrun_InvLive os _ _ (InvAll_init m (proj1 Hm)) (InvLive_init m (proj1 Hm)) Hw Hn Hr)).
Qed.

(* non-vacuity: a long mixed history is reachable and satisfies the hypotheses *)
Example C05_ex_reachable :
  exists g, reached 65535 [Consume 30000; Ack 10000; Consume 35535; Ack 55535; Open 5; Delta 10; Consume 0] g
            /\ no_negative_delta [Consume 30000; Ack 10000; Consume 35535; Ack 55535; Open 5; Delta 10; Consume 0]
            /\ g_A g = g_C g /\ g_K g > 0.
Proof.
  eexists. split; [split; [|split]|]; [lia | | vm_compute; reflexivity |].
  - vm_compute. repeat split; discriminate.
  - split; [repeat constructor; lia | vm_compute; repeat split].
Qed.

Print Assumptions C05_kernels_are_the_code.
Print Assumptions C05_never_over_credits.
Print Assumptions C05_window_never_above_limit_partial.
Print Assumptions C05_no_stall_partial.
