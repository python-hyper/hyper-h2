(* C04 — Inbound flow control is enforced exactly at the advertised windows.
   [c_in_wm] is the connection's WindowManager, [s_in_wm] a stream's; [in_windows c] all of them.
   Window arithmetic is the code's own (windows.py is AST-translated on every run and proved equal to
   Model/Windows.v in Proofs/GenEq.v). *)
From H2 Require Import Base.Prelude Base.PyDict Model.FsmTypes Gen.Tables Model.Types Model.Windows Model.Stream
  Model.ConnState Model.Connection Proofs.C04Proofs Gen.Guards Proofs.ConnPrims.

(* remote_flow_control_window is the smaller of the two advertised windows *)
Theorem C04_remote_window_is_the_minimum :
  forall sid c s, dget sid (c_streams c) = Some s ->
    remote_flow_control_window sid c = (c, Ok (Z.min (wm_cur (c_in_wm c)) (wm_cur (s_in_wm s)))).
Proof. intros sid c s H. unfold remote_flow_control_window. rewrite (lookup_known _ _ _ s H). reflexivity. Qed.

(* the connection window grows by exactly the increment of the WINDOW_UPDATE that is emitted; a call that
   raises (range, state machine, overflow of 2^31-1) leaves every window and the output unchanged *)
Theorem C04_increment_connection_window_exact :
  forall inc c c' r, 4 <= c_max_out_frame c -> api_increment_window inc None c = (c', r) ->
    (r = Ok tt /\ wm_cur (c_in_wm c') = wm_cur (c_in_wm c) + inc /\ c_out c' = c_out c ++ [FWindowUpdate 0 inc]
     /\ 1 <= inc /\ wm_cur (c_in_wm c) + inc <= 2147483647)
    \/ (is_ok r = false /\ in_windows c' = in_windows c /\ c_out c' = c_out c).
Proof.
  intros inc c c' r Hm H. pose proof (Wp.wp_run _ _ _ _ _ _ _ (increment_window_wp inc None c Hm) H) as W.
  destruct r as [[]|e co i b|p]; [left; split; [reflexivity | exact (W eq_refl)] | right; split; [reflexivity | exact W] ..].
Qed.

Theorem C04_raising_stream_increment_changes_no_window :
  forall inc sid c c' r, 4 <= c_max_out_frame c ->
    api_increment_window inc (Some sid) c = (c', r) -> is_ok r = false -> in_windows c' = in_windows c.
Proof.
  intros inc sid c c' r Hm H Hr. pose proof (Wp.wp_run _ _ _ _ _ _ _ (increment_window_wp inc (Some sid) c Hm) H) as W.
  destruct r; [discriminate | exact (proj1 W) ..].
Qed.

(* acknowledge_received_data: an unknown stream id raises before anything is credited *)
Theorem C04_acknowledge_for_unknown_stream_changes_nothing :
  forall n sid c, 0 < sid -> 0 <= n -> c_state c <> C_CLOSED ->
    dget sid (c_streams c) = None -> sid > highest_for c sid ->
    api_acknowledge_received_data n sid c = (c, Err NoSuchStreamError 1 sid false).
Proof.
  intros n sid c Hs Hn Hc Hd Hh. unfold api_acknowledge_received_data, g_ack_sid, g_ack_size, g_get_stream_nosuch.
  replace (sid <=? 0) with false by lia. replace (n <? 0) with false by lia.
  rewrite !bind_ret, bind_get, Hd.
  destruct (cstate_eqb (c_state c) C_CLOSED) eqn:Ec; [apply cstate_eqb_eq in Ec; contradiction|].
  replace (sid >? highest_for c sid) with true by lia. reflexivity.
Qed.

(* DATA that overruns the advertised connection window is a FLOW_CONTROL_ERROR (code 3) ... *)
Theorem C04_data_overrunning_connection_window_is_flow_control_error :
  forall sid len fclen es c, conn_transition (c_state c) CI_RECV_DATA <> None ->
    fclen > wm_cur (c_in_wm c) -> snd (recv_data sid len fclen es c) = Err FlowControlError 3 0 false.
Proof.
  intros sid len fclen es c Ht Hgt. unfold recv_data, bind. rewrite cfsm_eq, lift_cwm_eq.
  destruct (conn_transition _ _); [|contradiction]. unfold window_consumed. cbn [c_in_wm cset_state snd].
  replace (_ <? 0) with true by lia. reflexivity.
Qed.

(* ... DATA that fits passes the connection-level check and consumes exactly its flow-controlled length ... *)
Theorem C04_data_fitting_connection_window_is_accepted :
  forall fclen c, fclen <= wm_cur (c_in_wm c) ->
    forall t, conn_transition (c_state c) CI_RECV_DATA = Some t ->
    exists c1, (cfsm CI_RECV_DATA ;;; lift_cwm (fun w => window_consumed w fclen)) c = (c1, Ok tt)
               /\ wm_cur (c_in_wm c1) = wm_cur (c_in_wm c) - fclen.
Proof.
  intros fclen c Hle t Ht. rewrite (bind_ok_eq _ _ _ _ _ (cfsm_some _ c t Ht)), lift_cwm_eq. unfold window_consumed. cbn [c_in_wm cset_state fst snd].
  replace (_ <? 0) with false by lia. eexists. split; reflexivity.
Qed.

(* ... and the stream-level check is exact as well *)
Theorem C04_stream_window_check_exact :
  forall s fclen, snd (lift_wm (fun w => window_consumed w fclen) s) =
    if wm_cur (s_in_wm s) - fclen <? 0 then Err FlowControlError 3 0 false else Ok tt.
Proof. intros s fclen. unfold lift_wm, window_consumed. cbn [snd]. destruct (_ <? 0); reflexivity. Qed.

Example C04_ex :
  let c := run (conn_new (mkconfig false true true true true false)) [OInitiate] in
  snd (step c (OIncrementWindow 2147483647 None)) = Err FlowControlError 3 0 false /\
  in_windows (fst (step c (OIncrementWindow 2147483647 None))) = in_windows c.
Proof. vm_compute. split; reflexivity. Qed.

Print Assumptions C04_remote_window_is_the_minimum.
Print Assumptions C04_increment_connection_window_exact.
Print Assumptions C04_raising_stream_increment_changes_no_window.
Print Assumptions C04_acknowledge_for_unknown_stream_changes_nothing.
Print Assumptions C04_data_overrunning_connection_window_is_flow_control_error.
Print Assumptions C04_data_fitting_connection_window_is_accepted.
Print Assumptions C04_stream_window_check_exact.
