(* C18 — an undecodable header block is reported with PROTOCOL_ERROR (1), not COMPRESSION_ERROR (9): known finding
   F-C18-1 (the existing test suite pins code 1, so it is not repaired). *)
From H2 Require Import Base.Prelude Model.Types Model.Connection.
Theorem C18_undecodable_block_code_refuted : forall c, snd (decode_headers HDecodeError c) = Err ProtocolError 1 0 false.
Proof. reflexivity. Qed.
Print Assumptions C18_undecodable_block_code_refuted.
