(* C29 — API misuse is reported only through documented exceptions and emits nothing.
   [unknown_stream_error c sid]: StreamClosedError for an id at or below the watermark of its direction (closed and
   forgotten), NoSuchStreamError for a higher, never-used id (the comparison is extracted from _get_stream_by_id). *)
From H2 Require Import Base.Prelude Base.PyDict Model.FsmTypes Gen.Tables Gen.Guards Model.ConnState Model.Connection
  Proofs.ConnPrims Proofs.C29Proofs.

Theorem C29_lookup_of_an_unknown_stream :
  forall sid c, dget sid (c_streams c) = None ->
    get_stream_by_id sid c =
    (c, if sid >? highest_for c sid then Err NoSuchStreamError 1 sid false else Err StreamClosedError 5 sid false).
Proof. exact get_stream_by_id_none. Qed.

(* the calls that act on an existing stream report exactly that for an id not in the table (no KeyError), and
   change nothing but the connection state machine's state *)
Theorem C29_end_stream_on_unknown_stream :
  forall sid c t, conn_transition (c_state c) CI_SEND_DATA = Some t -> dget sid (c_streams c) = None ->
    api_end_stream sid c = (cset_state c t, unknown_stream_error c sid).
Proof.
  intros sid c t Ht H. unfold api_end_stream. rewrite (bind_ok_eq _ _ _ _ _ (cfsm_some _ c t Ht)), lookup_unknown, lookup_error_state by exact H.
  reflexivity.
Qed.
Theorem C29_reset_stream_on_unknown_stream :
  forall sid code c t, conn_transition (c_state c) CI_SEND_RST_STREAM = Some t -> dget sid (c_streams c) = None ->
    api_reset_stream sid code c = (cset_state c t, unknown_stream_error c sid).
Proof.
  intros sid code c t Ht H. unfold api_reset_stream. rewrite (bind_ok_eq _ _ _ _ _ (cfsm_some _ c t Ht)), lookup_unknown, lookup_error_state by exact H.
  reflexivity.
Qed.
Theorem C29_increment_window_on_unknown_stream :
  forall inc sid c t, g_inc_range inc = false ->
    conn_transition (c_state c) CI_SEND_WINDOW_UPDATE = Some t -> dget sid (c_streams c) = None ->
    api_increment_window inc (Some sid) c = (cset_state c t, unknown_stream_error c sid).
Proof.
  intros inc sid c t Hr Ht H. unfold api_increment_window. rewrite Hr, bind_ret, (bind_ok_eq _ _ _ _ _ (cfsm_some _ c t Ht)).
  rewrite (bind_lookup_error _ _ _ _ _ _ (lookup_unknown sid _ (cset_state c t) H)), lookup_error_state. reflexivity.
Qed.
Theorem C29_send_data_on_unknown_stream :
  forall sid len es pad c,
    g_send_data_pad (opt_default 0 pad) (match pad with Some _ => true | None => false end) = false ->
    dget sid (c_streams c) = None -> api_send_data sid len es pad c = (c, unknown_stream_error c sid).
Proof.
  intros sid len es pad c Hp H. unfold api_send_data, local_flow_control_window. rewrite Hp, bind_ret.
  exact (bind_lookup_error _ _ _ _ _ _ (lookup_unknown sid _ _ H)).
Qed.

(* a call that raises appends nothing (frame-size limit at least the RFC minimum 16384) *)
Theorem C29_raising_ping_and_reset_append_nothing :
  (forall pl, silent (api_ping pl)) /\ (forall sid code, silent (api_reset_stream sid code)).
Proof. exact (conj silent_ping silent_reset). Qed.

Print Assumptions C29_lookup_of_an_unknown_stream.
Print Assumptions C29_end_stream_on_unknown_stream.
Print Assumptions C29_reset_stream_on_unknown_stream.
Print Assumptions C29_increment_window_on_unknown_stream.
Print Assumptions C29_send_data_on_unknown_stream.
Print Assumptions C29_raising_ping_and_reset_append_nothing.
