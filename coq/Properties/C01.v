(* C01 — Two h2 endpoints exchange every successful send faithfully. *)
From H2 Require Import Base.Prelude Model.FsmTypes Gen.Consts Gen.Tables Model.Types Model.Windows Model.ConnState
  Model.Connection Proofs.C26Proofs Proofs.C23Proofs Proofs.C01Proofs Proofs.ConnPrims.

(* PING: a successful ping(payload) is reported by the peer as PingReceived(payload), answered with one ACK carrying the
   same payload, which the sender reports as PingAckReceived(payload) *)
Theorem C01_ping_round_trip :
  forall pl a b,
  zlen pl = 8 -> state_open a -> state_open b -> 8 <= c_max_out_frame a -> 8 <= c_max_out_frame b ->
  exists a1 b1 a2,
    api_ping pl a = (a1, Ok tt) /\ c_out a1 = c_out a ++ [FPing false pl] /\
    receive_frame (RPing false pl) b = (b1, Ok [EPingReceived pl]) /\ c_out b1 = c_out b ++ [FPing true pl] /\
    receive_frame (RPing true pl) a1 = (a2, Ok [EPingAckReceived pl]) /\ c_out a2 = c_out a1.
Proof.
  intros pl a b Hl Ha Hb Hma Hmb. do 3 eexists.
  rewrite (api_ping_ok pl a Hl Ha Hma), (receive_ping_frame false pl b Hb Hmb).
  rewrite (receive_ping_frame true pl (cset_out a (c_out a ++ [FPing false pl])) Ha Hma).
  repeat split. cbn [c_out cset_out]. apply app_nil_r.
Qed.

(* PRIORITY: the peer reports exactly the weight, dependency and exclusive flag of the call *)
Theorem C01_priority_call_round_trip :
  forall sid w d e b,
  prio_args_ok sid w d -> sid <> 0 -> conn_transition (c_state b) CI_RECV_PRIORITY <> None ->
  forall p, add_frame_priority sid w d e = Ok p ->
  snd (recv_priority sid p b) =
  Ok [EPriorityUpdated sid (match w with Some x => x | None => 16 end) (match d with Some dep => dep | None => 0 end)
                       (match e with Some x => x | None => false end)].
Proof. exact priority_round_trip. Qed.

(* connection-level WINDOW_UPDATE: the peer's send window grows by exactly the increment, one WindowUpdated(0, inc) *)
Theorem C01_connection_window_update_round_trip :
  forall inc b t,
  conn_transition (c_state b) CI_RECV_WINDOW_UPDATE = Some t -> 1 <= inc -> c_out_win b + inc <= LARGEST_FLOW_CONTROL_WINDOW ->
  recv_window_update 0 inc b = (cset_out_win (cset_state b t) (c_out_win b + inc), Ok ([], [EWindowUpdated 0 inc])).
Proof.
  intros inc b t Ht Hi Hw. unfold recv_window_update. rewrite (bind_ok_eq _ _ _ _ _ (cfsm_some _ b t Ht)).
  unfold bind, get, lift_res, guard_increment_window. cbn [Z.eqb negb c_out_win cset_state].
  destruct (c_out_win b + inc >? LARGEST_FLOW_CONTROL_WINDOW) eqn:E; [lia | reflexivity].
Qed.

(* GOAWAY: close_connection(code) is reported as ConnectionTerminated(code, last_stream_id, ...) *)
Theorem C01_goaway_round_trip :
  forall last code dbg b t,
  conn_transition (c_state b) CI_RECV_GOAWAY = Some t ->
  snd (recv_goaway last code dbg b) = Ok ([], [EConnectionTerminated code last dbg]).
Proof. intros last code dbg b t _. rewrite recv_goaway_closed_form. reflexivity. Qed.

Print Assumptions C01_ping_round_trip.
Print Assumptions C01_priority_call_round_trip.
Print Assumptions C01_connection_window_update_round_trip.
Print Assumptions C01_goaway_round_trip.
