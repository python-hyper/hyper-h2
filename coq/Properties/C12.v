(* C12 — SETTINGS values are validated with the RFC-mandated error codes.
   [code_validate] is the function translated from settings._validate_setting in /repo's working tree on
   this run (Gen/Kernels.v); [setting_ok]/[mandated_code] are the RFC table (Spec/Rfc65.v). *)
From H2 Require Import Base.Prelude Gen.Kernels Spec.Rfc65 Proofs.GenEq Proofs.C12Proofs.

Definition code_validate (id v : Z) : res Z := snd (k_validate_setting id v).
Definition code_guard_increment (cur d : Z) : res Z := snd (k_guard_increment_window cur d).

(* Every identifier (any integer, hence all of 0..2^16-1) and every value v >= 0 (hence all of
   0..2^32-1): the code accepts exactly the values the RFC allows ... *)
Theorem C12_accepts_exactly_in_range :
  forall id v, 0 <= v -> (code_validate id v = Ok 0 <-> setting_ok id v).
Proof.
  intros id v Hv. unfold code_validate. rewrite geneq_validate_setting. cbn [snd].
  rewrite <- (validate_zero_iff id v Hv). split; [intros [= ->]; reflexivity | intros ->; reflexivity].
Qed.

(* ... and rejects every other one with the mandated code. *)
Theorem C12_rejects_with_mandated_code :
  forall id v, 0 <= v -> ~ setting_ok id v -> code_validate id v = Ok (mandated_code id).
Proof.
  intros id v Hv Hn. unfold code_validate. rewrite geneq_validate_setting. cbn [snd]. f_equal.
  destruct (validate_spec id v Hv) as [[A _]|[_ B]]; [contradiction | exact B].
Qed.

(* Unknown identifiers (and the unconstrained known ones) are accepted whatever the value. *)
Theorem C12_unconstrained_identifier_accepted :
  forall id v, 0 <= v -> ~ In id constrained_ids -> code_validate id v = Ok 0.
Proof.
  intros id v Hv Hn. unfold code_validate. rewrite geneq_validate_setting. cbn [snd]. f_equal.
  apply validate_unconstrained; assumption.
Qed.

(* The window arithmetic used when INITIAL_WINDOW_SIZE changes: above 2^31-1 is FLOW_CONTROL_ERROR,
   anything else (including negative results, RFC 7540 6.9.2) is the exact sum. *)
Theorem C12_window_delta_overflow :
  forall cur d, code_guard_increment cur d =
                if cur + d >? 2^31 - 1 then Err FlowControlError 3 0 false else Ok (cur + d).
Proof.
  intros cur d. unfold code_guard_increment. rewrite geneq_guard_increment_window. reflexivity.
Qed.

(* non-vacuity: boundary values on both sides of each range *)
Example C12_ex_ok : setting_ok 5 16384 /\ setting_ok 4 2147483647 /\ setting_ok 2 1 /\ setting_ok 65535 4294967295.
Proof. unfold setting_ok. repeat split; intros; lia. Qed.
Example C12_ex_bad : ~ setting_ok 5 16383 /\ ~ setting_ok 4 2147483648 /\ ~ setting_ok 2 2 /\ ~ setting_ok 8 2.
Proof. unfold setting_ok. repeat split; intros H; lia. Qed.

Print Assumptions C12_accepts_exactly_in_range.
Print Assumptions C12_rejects_with_mandated_code.
Print Assumptions C12_unconstrained_identifier_accepted.
Print Assumptions C12_window_delta_overflow.
