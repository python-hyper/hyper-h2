(* C09 — Stream identifiers are allocated and checked per RFC 7540 section 5.1.1.
   [k_get_next_available_stream_id] is the function translated from connection.py on this run;
   [begin_new_stream] is H2Connection._begin_new_stream with its two checks extracted from the source. *)
From H2 Require Import Base.Prelude Base.PyDict Gen.Kernels Model.Types Model.StreamFSM Model.ConnState
  Model.Connection Proofs.C09Proofs Gen.Guards Proofs.ConnPrims Proofs.Frame Proofs.FrameConn Proofs.InvTac.

(* get_next_available_stream_id, for every watermark up to 2^31-1 and beyond: the least id of the
   endpoint's parity above every id used so far, or NoAvailableStreamIDError once that exceeds 2^31-1 *)
Theorem C09_next_stream_id_is_least_unused :
  forall hi client, 0 <= hi -> (hi = 0 \/ hi mod 2 = parity_of client) ->
    let n := if hi =? 0 then (if client then 1 else 2) else hi + 2 in
    snd (k_get_next_available_stream_id hi client) =
      (if n >? 2147483647 then Err NoAvailableStreamIDError 1 0 false else Ok n)
    /\ n mod 2 = parity_of client /\ hi < n
    /\ (forall m, hi < m -> m mod 2 = parity_of client -> 0 < m -> n <= m).
Proof.
  intros hi client Hh Hp n. subst n. unfold k_get_next_available_stream_id, parity_of in *.
  destruct (hi =? 0) eqn:E; cbn [negb].
  - assert (hi = 0) by lia. subst hi. destruct client; cbn; repeat split; try lia; intros m H1 H2 H3; (Z.to_euclidean_division_equations; lia).
  - destruct Hp as [Hp|Hp]; [lia|].
    split; [destruct (hi + 2 >? 2147483647); reflexivity|].
    split; [destruct client; (Z.to_euclidean_division_equations; lia)|]. split; [lia|].
    intros m H1 H2 H3. destruct client; (Z.to_euclidean_division_equations; lia).
Qed.

Theorem C09_model_next_id_is_the_translated_code :
  forall c, snd (api_next_stream_id c) = snd (k_get_next_available_stream_id (c_hi_out c) (cfg_client (c_cfg c))).
Proof.
  intros c. unfold api_next_stream_id, k_get_next_available_stream_id, bind, get, client, g_next_id_exhausted.
  destruct (c_hi_out c =? 0) eqn:E; cbn [negb].
  - destruct (cfg_client (c_cfg c)); cbn; reflexivity.
  - destruct (c_hi_out c + 2 >? 2147483647); reflexivity.
Qed.

(* a stream is opened only with an id strictly above the highest used in its direction and of the
   required parity; the watermark becomes that id; a refused id changes nothing at all *)
Theorem C09_opening_a_stream_checks_order_and_parity :
  forall sid allowed c c', begin_new_stream sid allowed c = (c', Ok tt) ->
    sid > highest_for c sid /\ sid mod 2 = allowed /\
    (if is_outbound c sid then c_hi_out c' = sid /\ c_hi_in c' = c_hi_in c else c_hi_in c' = sid /\ c_hi_out c' = c_hi_out c) /\
    dmem sid (c_streams c') = true.
Proof.
  intros sid allowed c c' H. apply begin_new_stream_ok in H as (H1 & H2 & ->). refine (conj H1 (conj H2 _)).
  unfold opened, dmem. destruct (is_outbound c sid); cbn; rewrite dget_dset_same; auto.
Qed.

Theorem C09_refused_id_changes_nothing :
  forall sid allowed c c' r, begin_new_stream sid allowed c = (c', r) -> is_ok r = false -> c' = c.
Proof.
  intros sid allowed c c' r. rewrite begin_new_stream_eq. destruct (sid <=? _); [|destruct (_ =? allowed)]; intros [= <- <-]; [reflexivity | discriminate | reflexivity].
Qed.

Theorem C09_which_error :
  forall sid allowed c, snd (begin_new_stream sid allowed c) =
    if sid <=? highest_for c sid then Err StreamIDTooLowError 1 sid false
    else if negb (sid mod 2 =? allowed) then perr else Ok tt.
Proof.
  intros sid allowed c. rewrite begin_new_stream_eq. destruct (sid <=? _); [|destruct (_ =? allowed)]; reflexivity.
Qed.

(* how a too-low id in a peer frame is answered: stream error if that stream was reset, STREAM_CLOSED
   connection error if it ended normally, PROTOCOL_ERROR connection error otherwise *)
Theorem C09_too_low_peer_id_classification :
  forall f c c1 code sid rst, dispatch f c = (c1, Err StreamIDTooLowError code sid rst) ->
    receive_frame f c =
      if closed_by_reset c1 sid then (prepare_for_sending [FRstStream sid 5] ;;; ret []) c1
      else if closed_by_end c1 sid then (c1, Err StreamClosedError 5 sid false)
      else (c1, Err StreamIDTooLowError code sid rst).
Proof. intros f c c1 code sid rst H. unfold receive_frame. rewrite H. reflexivity. Qed.

(* both watermarks are monotone over every history: ids are never reused downwards *)
Theorem C09_watermarks_never_decrease :
  forall os c, c_hi_out c <= c_hi_out (run c os) /\ c_hi_in c <= c_hi_in (run c os).
Proof.
  intros os c. apply (run_keeps (fun c c' => c_hi_out c <= c_hi_out c' /\ c_hi_in c <= c_hi_in c')); [lia | lia |].
  intros c0 c' []; try (split; apply Z.le_refl); cbn [c_hi_out c_hi_in cset_hi_out cset_hi_in cset_streams]; lia.
Qed.

(* PRIORITY frames for any id neither open nor implicitly close streams *)
Theorem C09_priority_frames_leave_ids_and_tables_alone :
  forall sid p c c' r, recv_priority sid p c = (c', r) ->
    c_hi_in c' = c_hi_in c /\ c_hi_out c' = c_hi_out c /\ c_streams c' = c_streams c /\ c_closed c' = c_closed c.
Proof.
  intros sid p c c' r H. apply (k_recv_priority (peq (fun c => (c_hi_in c, c_hi_out c, c_streams c, c_closed c)))) in H; [|unread..].
  injection H. auto.
Qed.

Example C09_ex_boundary :
  snd (k_get_next_available_stream_id 2147483645 true) = Ok 2147483647 /\
  snd (k_get_next_available_stream_id 2147483647 true) = Err NoAvailableStreamIDError 1 0 false /\
  snd (k_get_next_available_stream_id 0 false) = Ok 2.
Proof. vm_compute. repeat split. Qed.

Print Assumptions C09_next_stream_id_is_least_unused.
Print Assumptions C09_model_next_id_is_the_translated_code.
Print Assumptions C09_opening_a_stream_checks_order_and_parity.
Print Assumptions C09_refused_id_changes_nothing.
Print Assumptions C09_which_error.
Print Assumptions C09_too_low_peer_id_classification.
Print Assumptions C09_watermarks_never_decrease.
Print Assumptions C09_priority_frames_leave_ids_and_tables_alone.
