(* C10 — Concurrent-stream limits are respected and enforced.
   [open_count r c]: the number of streams of parity r in the RFC 7540 5.1.2 sense (open or half-closed).
   The two limit checks are the guards g_send_headers_mcs / g_recv_headers_mcs extracted from connection.py. *)
From H2 Require Import Base.Prelude Base.PyDict Model.FsmTypes Gen.Tables Model.Types Model.Settings Model.StreamFSM
  Model.ConnState Model.Connection Proofs.C10Proofs Proofs.C29Proofs.

(* exactly open and the two half-closed states count: reserved (pushed) streams do not *)
Theorem C10_which_states_count :
  forall s, stream_open s = match s with S_OPEN | S_HALF_CLOSED_LOCAL | S_HALF_CLOSED_REMOTE => true | _ => false end.
Proof. intros s. destruct s; reflexivity. Qed.

(* open_outbound_streams / open_inbound_streams return that number; removing closed streams lazily changes no count *)
Theorem C10_counters_equal_the_rfc_count :
  forall r c, exists c', open_streams r c = (c', Ok (open_count r c)) /\ forall r', open_count r' c' = open_count r' c.
Proof.
  intros r c. eexists. split; [apply open_streams_eq|]. intros r'. unfold open_count. cbn [open_streams fst c_streams cset_closed cset_streams].
  f_equal. apply filter_filter_weaker. intros [k s] Hc. unfold counts in Hc. cbn [fst snd] in *.
  apply andb_true_iff in Hc. destruct Hc as [Ho _]. rewrite (open_not_closed s Ho). rewrite andb_false_r. reflexivity.
Qed.

(* opening a stream locally succeeds only with room under the peer's current limit ... *)
Theorem C10_local_open_respects_peer_limit :
  forall sid hs L es pw pd pe c c', dmem sid (c_streams c) = false ->
    api_send_headers sid hs L es pw pd pe c = (c', Ok tt) ->
    open_count (b2z (client c)) c + 1 <= s_max_concurrent_streams (c_remote c).
Proof.
  intros sid hs L es pw pd pe c c' Hm H. assert (Hc : client c = true).
  { destruct (client c) eqn:Hc; [reflexivity|]. rewrite (server_send_headers_ok_known _ _ _ _ _ _ _ _ _ Hc H) in Hm. discriminate. }
  apply Z.nlt_ge. intros Hgt. rewrite send_headers_over_limit in H by (assumption || lia). discriminate.
Qed.

(* ... and otherwise raises TooManyStreamsError and emits nothing (only clients open streams this way: fix 12650a7) *)
Theorem C10_local_open_over_limit_is_refused :
  forall sid hs L es pw pd pe c, client c = true -> dmem sid (c_streams c) = false ->
    open_count (b2z (client c)) c + 1 > s_max_concurrent_streams (c_remote c) ->
    exists c', api_send_headers sid hs L es pw pd pe c = (c', Err TooManyStreamsError 1 0 false) /\ c_out c' = c_out c.
Proof. intros sid hs L es pw pd pe c Hc Hm Hgt. eexists. split; [exact (send_headers_over_limit sid hs L es pw pd pe c Hc Hm Hgt) | reflexivity]. Qed.

(* a peer HEADERS that would exceed the acknowledged local limit is rejected; one that would not passes the check *)
Theorem C10_peer_open_over_limit_is_rejected :
  forall sid es p d c, dmem sid (c_streams c) = false ->
    open_count (b2z (negb (client c))) c + 1 > s_max_concurrent_streams (c_local c) ->
    snd (recv_headers sid es p d c) = Err TooManyStreamsError 1 0 false.
Proof. intros sid es p d c Hm Hgt. rewrite (recv_headers_over_limit sid es p d c Hm Hgt). reflexivity. Qed.

Theorem C10_peer_open_within_limit_passes_the_check :
  forall sid c, dmem sid (c_streams c) = false ->
    open_count (b2z (negb (client c))) c + 1 <= s_max_concurrent_streams (c_local c) ->
    exists c1, (n <- open_inbound_streams ;;
                c' <- get ;;
                if Gen.Guards.g_recv_headers_mcs n (s_max_concurrent_streams (c_local c')) true
                then fail TooManyStreamsError (Gen.Consts.exn_code TooManyStreamsError) 0 false else ret tt) c = (c1, Ok tt).
Proof. intros sid c _ Hle. eexists. rewrite inbound_check. replace (_ >? _) with false by lia. reflexivity. Qed.

Print Assumptions C10_which_states_count.
Print Assumptions C10_counters_equal_the_rfc_count.
Print Assumptions C10_local_open_respects_peer_limit.
Print Assumptions C10_local_open_over_limit_is_refused.
Print Assumptions C10_peer_open_over_limit_is_rejected.
Print Assumptions C10_peer_open_within_limit_passes_the_check.
