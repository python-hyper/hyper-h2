(* C19 — A closed connection stays quiet.
   [closed c]: the connection state machine is in CLOSED.  [step] is one API call or one receive_data call. *)
From H2 Require Import Base.Prelude Model.FsmTypes Gen.Tables Model.Types Model.StreamFSM Model.ConnState
  Model.Connection Proofs.C19Proofs Proofs.C01Proofs Gen.Guards Proofs.InvTac.

(* the generated table: in CLOSED only GOAWAY is possible, and GOAWAY (sent or received) closes from any state *)
Theorem C19_table_closed_admits_only_goaway :
  forall i s, conn_transition C_CLOSED i = Some s -> (i = CI_SEND_GOAWAY \/ i = CI_RECV_GOAWAY) /\ s = C_CLOSED.
Proof. intros i s. destruct i; cbn; intros H; try discriminate; injection H as <-; auto. Qed.
Theorem C19_table_goaway_closes :
  forall s, conn_transition s CI_SEND_GOAWAY = Some C_CLOSED /\ conn_transition s CI_RECV_GOAWAY = Some C_CLOSED.
Proof. intros s. destruct s; cbn; auto. Qed.

(* CLOSED is absorbing under every operation, hence for every history (any length, any calls and frames) *)
Theorem C19_closed_is_absorbing : forall os c, closed c -> closed (run c os).
Proof.
  (* the only write to the state is cfsm's, and the table leaves CLOSED nowhere *)
  intros os. apply run_upd_all. intros c c' [] Hc; try exact Hc.
  unfold closed in *. cbn [c_state cset_state]. rewrite Hc. destruct i; reflexivity.
Qed.

(* every call that would emit a frame other than GOAWAY, or open a stream, raises and appends nothing *)
Theorem C19_emitting_calls_raise_and_append_nothing :
  (forall sid hs L es pw pd pe, quiet (api_send_headers sid hs L es pw pd pe)) /\
  (forall sid len es pad, quiet (api_send_data sid len es pad)) /\
  (forall sid, quiet (api_end_stream sid)) /\
  (forall inc sid, quiet (api_increment_window inc sid)) /\
  (forall sid pr hs L, quiet (api_push_stream sid pr hs L)) /\
  (forall pl, quiet (api_ping pl)) /\
  (forall sid code, quiet (api_reset_stream sid code)) /\
  (forall kvs, quiet (api_update_settings kvs)) /\
  (forall f o s, quiet (api_advertise_alt_svc f o s)) /\
  (forall sid w d e, quiet (api_prioritize sid w d e)).
Proof.
  repeat match goal with |- _ /\ _ => split end; intros.
  - unfold api_send_headers. refused.
  - unfold api_send_data. refused.
  - unfold api_end_stream. refused.
  - unfold api_increment_window. refused.
  - unfold api_push_stream. refused.
  - unfold api_ping. refused.
  - unfold api_reset_stream. refused.
  - unfold api_update_settings. refused.
  - unfold api_advertise_alt_svc. destruct o, s; try (apply quiet_stop; reflexivity); refused.
  - unfold api_prioritize. apply quiet_after; [unread_walk | intros c0]. destruct (negb (client c0)); [apply quiet_stop; reflexivity | refused].
Qed.

(* received frames handled through the connection state machine raise on a closed connection
   without appending anything themselves (the error path then appends one GOAWAY, C18) *)
Theorem C19_received_frames_raise_on_closed :
  (forall ack pl, quiet (recv_ping ack pl)) /\ (forall ack vals, quiet (recv_settings ack vals)) /\
  (forall sid p, quiet (recv_priority sid p)) /\ (forall sid code, quiet (recv_rst_stream sid code)) /\
  (forall sid o f, quiet (recv_alt_svc sid o f)) /\
  (forall sid len fclen es c, closed c -> recv_data sid len fclen es c = (c, perr)) /\
  (forall sid inc c, closed c -> recv_window_update sid inc c = (c, perr)).
Proof.
  repeat match goal with |- _ /\ _ => split end; intros.
  - unfold recv_ping. refused.
  - unfold recv_settings. refused.
  - unfold recv_priority. refused.
  - unfold recv_rst_stream. refused.
  - unfold recv_alt_svc. refused.
  - unfold recv_data. unfold bind at 1. rewrite (cfsm_closed _ c H). reflexivity.
  - unfold recv_window_update. unfold bind at 1. rewrite (cfsm_closed _ c H). reflexivity.
Qed.

(* acknowledge_received_data, which does not go through the state machine, is a no-op once closed *)
Theorem C19_acknowledge_on_closed_is_a_noop :
  forall n sid c, closed c -> 0 < sid -> 0 <= n -> api_acknowledge_received_data n sid c = (c, Ok tt).
Proof.
  intros n sid c Hc Hs Hn. unfold api_acknowledge_received_data, g_ack_sid, g_ack_size.
  destruct (sid <=? 0) eqn:E1; [lia|]. destruct (n <? 0) eqn:E2; [lia|].
  unfold bind, ret, get. unfold closed in Hc. rewrite Hc. reflexivity.
Qed.

(* receiving GOAWAY discards the output not yet handed to the application *)
Theorem C19_goaway_discards_pending_output :
  forall last code dbg c c' r, recv_goaway last code dbg c = (c', r) -> is_ok r = true -> c_out c' = [].
Proof. intros last code dbg c c' r H _. rewrite recv_goaway_closed_form in H. injection H as <- _. reflexivity. Qed.

Example C19_ex_closed_reachable :
  closed (run (conn_new (mkconfig true true true true true false)) [OInitiate; OCloseConnection 0 None 0]).
Proof. reflexivity. Qed.

Print Assumptions C19_table_closed_admits_only_goaway.
Print Assumptions C19_table_goaway_closes.
Print Assumptions C19_closed_is_absorbing.
Print Assumptions C19_emitting_calls_raise_and_append_nothing.
Print Assumptions C19_received_frames_raise_on_closed.
Print Assumptions C19_acknowledge_on_closed_is_a_noop.
Print Assumptions C19_goaway_discards_pending_output.
