(* C26 — Each received PING is answered exactly once with the same payload.
   [receive_frame] is H2Connection._receive_frame (one frame of a receive_data call; frames of a call are
   processed in order and their events concatenated, Model/Connection.v api_receive). *)
From H2 Require Import Base.Prelude Model.FsmTypes Gen.Tables Model.Types Model.ConnState Model.Connection
  Proofs.C26Proofs Proofs.C26Flood Gen.Guards.

(* For every payload and every state of a connection that is not closed: a PING without ACK appends
   exactly one PING ACK with the identical payload and reports exactly one PingReceived; a PING ACK
   appends nothing and reports exactly one PingAckReceived; no other part of the state changes. *)
Theorem C26_each_ping_answered_once_same_payload :
  forall ack pl c, state_open c -> 8 <= c_max_out_frame c ->
    receive_frame (RPing ack pl) c =
    (cset_out c (c_out c ++ (if ack then [] else [FPing true pl])),
     Ok [if ack then EPingAckReceived pl else EPingReceived pl]).
Proof. exact receive_ping_frame. Qed.

(* ping() emits exactly one PING with the given payload when it has 8 bytes ... *)
Theorem C26_ping_emits_one_frame :
  forall pl c, zlen pl = 8 -> state_open c -> 8 <= c_max_out_frame c ->
    api_ping pl c = (cset_out c (c_out c ++ [FPing false pl]), Ok tt).
Proof. exact api_ping_ok. Qed.

(* ... and accepts nothing else: ValueError, state untouched *)
Theorem C26_ping_rejects_other_lengths :
  forall pl c, zlen pl <> 8 -> api_ping pl c = (c, Crash ValueError).
Proof.
  intros pl c Hl. unfold api_ping, g_ping_len. cbn [negb orb].
  destruct (zlen pl =? 8) eqn:E; [lia|]. reflexivity.
Qed.

(* PING handling is enabled in every connection state except CLOSED (decided on the generated table) *)
Theorem C26_ping_allowed_unless_closed :
  forall s, (conn_transition s CI_RECV_PING = None <-> s = C_CLOSED) /\ (conn_transition s CI_SEND_PING = None <-> s = C_CLOSED).
Proof. intros s. split; apply ConnPrims.housekeeping_refused; reflexivity. Qed.

(* A whole receive_data call carrying any number of PING frames (ACK or not, any payloads; the flood is
   a list of arbitrary length): one ACK per non-ACK PING, in arrival order, identical payloads; one
   event per frame in order; nothing is left in the buffer and nothing else changes.
   ping_frame p = (RPing (fst p) (snd p), 8) : a PING frame with its 8-byte body length. *)
Theorem C26_ping_flood_answered_in_order :
  forall ps c, state_open c -> 8 <= c_max_out_frame c -> 8 <= c_max_in_frame c -> c_inbuf c = [] ->
    api_receive (map ping_frame ps) c =
    (cset_out c (c_out c ++ map (fun p => FPing true (snd p)) (filter (fun p => negb (fst p)) ps)),
     Ok (map ping_event ps)).
Proof. intros ps c Ho Hm Hi Hb. rewrite <- ping_flood_payloads. exact (ping_flood ps c Ho Hm Hi Hb). Qed.

Example C26_ex_flood :
  let c := conn_new (mkconfig true true true true true false) in
  8 <= c_max_in_frame c /\ c_inbuf c = [].
Proof. split; [vm_compute; discriminate | reflexivity]. Qed.

Example C26_ex : state_open (conn_new (mkconfig true true true true true false)) /\
                 8 <= c_max_out_frame (conn_new (mkconfig true true true true true false)).
Proof. split; [discriminate | vm_compute; discriminate]. Qed.

Print Assumptions C26_each_ping_answered_once_same_payload.
Print Assumptions C26_ping_emits_one_frame.
Print Assumptions C26_ping_rejects_other_lengths.
Print Assumptions C26_ping_allowed_unless_closed.
Print Assumptions C26_ping_flood_answered_in_order.
