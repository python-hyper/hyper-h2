(* C20 — Frames racing a local stream reset never break the connection. *)
From H2 Require Import Base.Prelude Base.PyDict Model.FsmTypes Gen.Consts Model.Types Model.Windows Model.Settings
  Model.Stream Model.ConnState Model.Connection.
From H2 Require Proofs.ConnPrims.

(* whatever the handler did, a StreamClosedError for a stream closed by a reset leaves receive_data with an RST_STREAM and no
   connection error; the only event possible is the StreamReset of the reset itself *)
Theorem C20_closed_by_reset_is_a_stream_error :
  forall f c c1 code sid rst,
  dispatch f c = (c1, Err StreamClosedError code sid rst) -> closed_by_reset c1 sid = true -> 4 <= c_max_out_frame c1 ->
  receive_frame f c = (cset_out c1 (c_out c1 ++ [FRstStream sid code]), Ok (if rst then [EStreamReset sid EC_STREAM_CLOSED false] else [])).
Proof.
  intros f c c1 code sid rst Hd Hr Hm. unfold receive_frame. rewrite Hd, Hr. unfold bind, prepare_for_sending. cbn [forallb body_len andb].
  destruct (4 <=? c_max_out_frame c1) eqn:E; [reflexivity|lia].
Qed.

(* PUSH_PROMISE on a stream we reset and already forgot: the promised stream is refused, nothing is reported *)
Theorem C20_push_promise_on_forgotten_reset_stream :
  forall sid promised hs c c2 c3,
  s_enable_push (c_local c) <> 0 -> decode_headers (HDecoded hs) c = (c2, Ok hs) -> cfsm CI_RECV_PUSH_PROMISE c2 = (c3, Ok tt) ->
  dget sid (c_streams c3) = None -> stream_closed_by c3 sid = Some CB_SEND_RST_STREAM ->
  recv_push_promise sid promised (HDecoded hs) c = (c3, Ok ([FRstStream promised EC_REFUSED_STREAM], [])).
Proof.
  intros sid promised hs c c2 c3 Hp Hd Hc Hn Hcb. unfold recv_push_promise. rewrite ConnPrims.bind_get.
  replace (_ =? 0) with false by lia.
  rewrite ConnPrims.bind_ret, (ConnPrims.bind_ok_eq _ _ _ _ _ Hd), (ConnPrims.bind_ok_eq _ _ _ _ _ Hc), ConnPrims.bind_get, Hn, Hcb. reflexivity.
Qed.

(* DATA on a closed stream: never a connection error; the connection window gets the credit back (process_bytes), and the
   stream is answered with RST_STREAM *)
Theorem C20_data_on_closed_stream_refills_the_connection_window :
  forall sid len fclen es c c0 cw c1 code esid rst,
  cfsm CI_RECV_DATA c = (c0, Ok tt) ->
  lift_cwm (fun w => window_consumed w fclen) c0 = (cw, Ok tt) ->
  (get_stream_by_id sid ;;; with_stream sid (receive_data len fclen es)) cw = (c1, Err StreamClosedError code esid rst) ->
  recv_data sid len fclen es c =
  (cset_in_wm c1 (fst (process_bytes (c_in_wm c1) fclen)),
   Ok ((match wm_increment (snd (process_bytes (c_in_wm c1) fclen)) with Some inc => [FWindowUpdate 0 inc] | None => [] end) ++ [FRstStream esid code],
       if rst then [EStreamReset esid EC_STREAM_CLOSED false] else [])).
Proof.
  intros sid len fclen es c c0 cw c1 code esid rst Hc Hw Hs. unfold recv_data. unfold bind at 1. rewrite Hc. unfold bind at 1. rewrite Hw. rewrite Hs.
  destruct (process_bytes (c_in_wm c1) fclen) as [w' o]. reflexivity.
Qed.

Print Assumptions C20_closed_by_reset_is_a_stream_error.
Print Assumptions C20_push_promise_on_forgotten_reset_stream.
Print Assumptions C20_data_on_closed_stream_refills_the_connection_window.
