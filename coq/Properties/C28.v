(* C28 — Output is a deterministic function of the call sequence. *)
From H2 Require Import Base.Prelude Base.PyDict Model.Connection Model.Obs.

(* What a proof assistant can say here is limited, and it is said plainly: the model is a total Gallina function, so equal
   configurations and equal operation sequences give equal observations (bytes, events, exceptions, state) — there is no
   clock, no randomness and no hash-dependent iteration in it: every Python dict the code iterates over (streams, settings,
   closed streams, changed settings) is modelled as an insertion-ordered association list, which is what CPython guarantees
   independently of PYTHONHASHSEED.  That the IMPLEMENTATION is this function under every hash seed is not a theorem: it is
   checked by running the same programs in separate interpreter processes under different PYTHONHASHSEED values and comparing
   all fourteen observation parts with each other and with the model (see evidence).  The proof content of this property is
   therefore partial: determinism of the model + correspondence per seed. *)
Theorem C28_model_is_a_function_of_the_call_sequence :
  forall cfg1 cfg2 os1 os2, cfg1 = cfg2 -> os1 = os2 -> run_obs (conn_new cfg1) os1 = run_obs (conn_new cfg2) os2.
Proof. intros cfg1 cfg2 os1 os2 -> ->. reflexivity. Qed.

(* insertion order is all the iteration order there is: setting an existing key keeps its position, a new key goes last *)
Theorem C28_dict_iteration_is_insertion_order :
  forall (A : Type) (k : Z) (v : A) (d : dict A), dget k d = None -> map fst (dset k v d) = map fst d ++ [k].
Proof. exact (@dkeys_dset_new). Qed.

(* updating an existing key keeps every key where it was *)
Theorem C28_dict_update_keeps_positions :
  forall (A : Type) (k : Z) (v : A) (d : @dict A), dget k d <> None -> map fst (dset k v d) = map fst d.
Proof. exact (@dkeys_dset_known). Qed.

Print Assumptions C28_model_is_a_function_of_the_call_sequence.
Print Assumptions C28_dict_iteration_is_insertion_order.
Print Assumptions C28_dict_update_keeps_positions.
