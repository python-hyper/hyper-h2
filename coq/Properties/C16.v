(* C16 — Content-Length is enforced as RFC 7540 section 8.1.2.6 requires. *)
From H2 Require Import Base.Prelude Gen.Kernels Model.Types Model.Headers Model.Stream Proofs.C16Proofs Proofs.Wp
  Proofs.C0708Proofs.

(* the accounting step of the model is H2Stream._track_content_length as translated from stream.py on this run *)
Theorem C16_model_step_is_the_translated_method :
  forall len es s,
    let '(s', r) := track_content_length len es s in
    let '((act, exp), r') := k_track_content_length (s_act_cl s) (s_exp_cl s) len es in
    s' = set_cl s exp act /\ r = r'.
Proof. exact track_is_translated. Qed.

(* For EVERY content-length n, EVERY chunking of the body into DATA frames (any number, any non-negative sizes):
   while the message is open, DATA is accepted exactly as long as the payload total stays within n ... *)
Theorem C16_data_accepted_iff_within_content_length :
  forall n ls s, s_exp_cl s = Some n -> s_act_cl s = 0 -> Forall (fun l => 0 <= l) ls -> ls <> [] ->
    (fst (track_all s (plain_chunks ls)) = true <-> total (plain_chunks ls) <= n).
Proof.
  intros n ls s He Ha Hnn Hne. rewrite (track_all_within n _ s He), Ha, (within_plain n ls 0 Hnn).
  destruct ls; [contradiction|]. apply Z.leb_le.
Qed.

(* ... and a message ended by a DATA frame is accepted if and only if the payload total equals n *)
Theorem C16_message_ended_by_data_accepted_iff_total_matches :
  forall n ls l s, s_exp_cl s = Some n -> s_act_cl s = 0 -> Forall (fun x => 0 <= x) ls -> 0 <= l ->
    (fst (track_all s (plain_chunks ls ++ [(l, true)])) = true <-> total (plain_chunks ls) + l = n).
Proof.
  intros n ls l s He Ha Hnn Hl. rewrite (track_all_within n _ s He), Ha, within_app, (within_plain n ls 0 Hnn). cbn [within negb orb].
  pose proof (total_nonneg ls Hnn). destruct ls; lia.
Qed.

Theorem C16_no_content_length_no_check :
  forall chunks s, s_exp_cl s = None -> fst (track_all s chunks) = true.
Proof.
  intros chunks. induction chunks as [|[l es] r IH]; intros s He; cbn [track_all]; [reflexivity|].
  unfold track_content_length. rewrite He. apply IH. reflexivity.
Qed.

(* padding does not count: for every payload length and every flow-controlled length *)
Theorem C16_padding_is_not_counted :
  forall len fclen es s s' evs, receive_data len fclen es s = (s', Ok evs) -> s_act_cl s' = s_act_cl s + len.
Proof. intros len fclen es s s' evs H. exact (proj2 (wp_run _ _ _ _ _ _ _ (receive_data_nc len fclen es s) H)). Qed.

(* a response to a HEAD request expects an empty body whatever content-length it carries (so: rejected only if it has payload) *)
Theorem C16_head_response_expects_no_payload :
  forall hs s s' r, s_method s = Some b_HEAD -> initialize_content_length hs s = (s', r) -> s_exp_cl s' = Some 0 /\ r = Ok tt.
Proof.
  intros hs s s' r Hm. unfold initialize_content_length, bind, get. rewrite Hm. rewrite (proj2 (bytes_eqb_eq b_HEAD b_HEAD) eq_refl).
  unfold put. intros H. injection H as <- <-. split; reflexivity.
Qed.

Print Assumptions C16_model_step_is_the_translated_method.
Print Assumptions C16_data_accepted_iff_within_content_length.
Print Assumptions C16_message_ended_by_data_accepted_iff_total_matches.
Print Assumptions C16_no_content_length_no_check.
Print Assumptions C16_padding_is_not_counted.
Print Assumptions C16_head_response_expects_no_payload.
