(* C26 over whole receive_data calls: any number of PING frames (ACK or not, any payloads) arriving in
   one call on a connection that is not closed are answered one ACK per non-ACK PING, in arrival
   order, with the identical payloads, and reported one event per frame in order; the call leaves
   nothing in the buffer and changes nothing else.  Induction over the frame list: no bound on the
   length of the flood. *)
From H2 Require Import Base.Prelude Gen.Guards Model.Types Model.ConnState Model.Connection Proofs.ConnPrims
  Proofs.Inv Proofs.C26Proofs.

Definition ping_frame (p : bool * bytes) : rframe * Z := (RPing (fst p) (snd p), 8).
Definition ping_answer (p : bool * bytes) : list frame := if fst p then [] else [FPing true (snd p)].
Definition ping_event (p : bool * bytes) : event := if fst p then EPingAckReceived (snd p) else EPingReceived (snd p).

Lemma ping_passes_frame_buffer limit a pl : 8 <= limit -> frame_buffer_check limit (RPing a pl) 8 = FBYield.
Proof.
  intros H. unfold frame_buffer_check, g_fb_len. cbn [bad_stream_association bad_promised_id].
  destruct (8 >? limit) eqn:E; [lia|]. reflexivity.
Qed.

Lemma recv_one_ping p c :
  state_open c -> 8 <= c_max_out_frame c -> 8 <= c_max_in_frame c ->
  recv_one (ping_frame p) c = (cset_out c (c_out c ++ ping_answer p), Ok [ping_event p], false).
Proof.
  intros Ho Hm Hi. unfold recv_one, ping_frame. cbn [fst snd].
  rewrite (ping_passes_frame_buffer _ _ _ Hi), (receive_ping_frame _ _ c Ho Hm). reflexivity.
Qed.

Lemma ping_flood_core ps : forall acc c,
  state_open c -> 8 <= c_max_out_frame c -> 8 <= c_max_in_frame c ->
  recv_core (map ping_frame ps) acc c =
  (cset_out c (c_out c ++ flat_map ping_answer ps), Ok (acc ++ map ping_event ps), []).
Proof.
  induction ps as [|p ps IH]; intros acc c Ho Hm Hi; cbn [map flat_map].
  - cbn [recv_core]. rewrite !app_nil_r, cset_out_same. reflexivity.
  - rewrite recv_core_cons, (recv_one_ping p c Ho Hm Hi), IH by assumption.
    cbn [c_out cset_out]. rewrite cset_out_twice, <- !app_assoc. reflexivity.
Qed.

Theorem ping_flood ps c :
  state_open c -> 8 <= c_max_out_frame c -> 8 <= c_max_in_frame c -> c_inbuf c = [] ->
  api_receive (map ping_frame ps) c =
  (cset_out c (c_out c ++ flat_map ping_answer ps), Ok (map ping_event ps)).
Proof.
  intros Ho Hm Hi Hb. unfold api_receive. rewrite Hb. cbn [app].
  rewrite (ping_flood_core ps [] c Ho Hm Hi). cbn [app].
  destruct c; cbn in *. subst. reflexivity.
Qed.

Lemma ping_flood_payloads ps :
  flat_map ping_answer ps = map (fun p => FPing true (snd p)) (filter (fun p => negb (fst p)) ps).
Proof.
  induction ps as [|[a pl] ps IH]; [reflexivity|]. cbn [flat_map filter fst]. rewrite IH.
  unfold ping_answer. cbn [fst snd]. destruct a; reflexivity.
Qed.

Corollary ping_flood_counts ps :
  length (flat_map ping_answer ps) = length (filter (fun p => negb (fst p)) ps) /\
  length (map ping_event ps) = length ps.
Proof. rewrite ping_flood_payloads, !map_length. split; reflexivity. Qed.
