(* C11, "one frame per ACK, in order", for any number of frames in flight on one identifier k (n update_settings calls,
   values v_1 .. v_n, repeated values allowed): what the three same-identifier theorems of Properties/C11.v rest on.  The
   queue of k after the calls is the queue before followed by the values, and every acknowledgement drops its head
   ([fifo_queue]).  Induction over the list of values and over the number of acknowledgements: no bound on either.  (With
   several identifiers the per-key queues of the library do NOT apply frames in order: Properties/C11_refuted.v, F-C11-1.) *)
From H2 Require Import Base.Prelude Base.PyDict Model.SettingsV Model.Settings Proofs.C11Proofs.

Definition queue_sends (k : Z) (vs : list Z) (s : settings) : settings :=
  fold_left (fun s v => fst (ssetitem k v s)) vs s.
Definition acks (n : nat) (s : settings) : settings := Nat.iter n (fun s => fst (sacknowledge s)) s.

Lemma queue_sends_cons k v vs s : validate_setting k v = 0 ->
  queue_sends k (v :: vs) s = queue_sends k vs (dset k (queue_of k s ++ [Some v]) s).
Proof. intros H. unfold queue_sends. cbn [fold_left]. rewrite (ssetitem_ok k v s H). reflexivity. Qed.

Lemma queue_sends_queue k vs : forall s q, dget k s = Some q -> Forall (fun v => validate_setting k v = 0) vs ->
  dget k (queue_sends k vs s) = Some (q ++ map Some vs).
Proof.
  induction vs as [|v vs IH]; intros s q Hq Hv; [cbn; rewrite app_nil_r; exact Hq|].
  inversion Hv as [|? ? Hv1 Hv2]; subst. rewrite (queue_sends_cons k v vs s Hv1). unfold queue_of. rewrite Hq.
  rewrite (IH _ (q ++ [Some v])); [rewrite <- app_assoc; reflexivity | apply dget_dset_same | exact Hv2].
Qed.

Lemma queue_sends_other k k' vs : k <> k' -> forall s, Forall (fun v => validate_setting k v = 0) vs ->
  dget k' (queue_sends k vs s) = dget k' s.
Proof.
  intros Hk. induction vs as [|v vs IH]; intros s Hv; [reflexivity|].
  inversion Hv as [|? ? Hv1 Hv2]; subst. rewrite (queue_sends_cons k v vs s Hv1), (IH _ Hv2). apply dget_dset_other. exact Hk.
Qed.

Lemma ackq_skipn (l : list (option Z)) : forall n, (S n < length l)%nat -> ackq (skipn n l) = skipn (S n) l.
Proof.
  induction l as [|a l IH]; intros n H; [cbn in H; lia|].
  destruct n as [|n].
  - destruct l as [|b l]; [cbn in H; lia|]. reflexivity.
  - cbn [skipn]. rewrite IH; [reflexivity | cbn [length] in H; lia].
Qed.

Lemma acks_S n s : acks (S n) s = fst (sacknowledge (acks n s)).
Proof. reflexivity. Qed.

Lemma acks_queue k l : forall n s, dget k s = Some l -> (n < length l)%nat ->
  dget k (acks n s) = Some (skipn n l).
Proof.
  induction n as [|n IH]; intros s Hs Hn; [exact Hs|].
  rewrite acks_S, sacknowledge_effect, (IH s Hs) by lia. cbn [option_map]. rewrite ackq_skipn by lia. reflexivity.
Qed.

Lemma skipn_nth_error {A} (l : list A) : forall j x, nth_error l j = Some x -> exists r, skipn j l = x :: r.
Proof.
  induction l as [|a l IH]; intros j x H; destruct j as [|j]; cbn in H; try discriminate.
  - injection H as <-. exists l. reflexivity.
  - cbn [skipn]. exact (IH j x H).
Qed.

Lemma skipn_length_last {A} (l : list A) d : forall x, l <> [] -> skipn (length l) (x :: l) = [last l d].
Proof.
  induction l as [|a l IH]; intros x Hne; [contradiction|]. cbn [length skipn]. destruct l as [|b l]; [reflexivity|].
  rewrite (IH a) by discriminate. reflexivity.
Qed.

Lemma fifo_queue k vs s o n :
  dget k s = Some [o] -> Forall (fun v => validate_setting k v = 0) vs -> (n <= length vs)%nat ->
  dget k (acks n (queue_sends k vs s)) = Some (skipn n (o :: map Some vs)).
Proof.
  intros Hs Hv Hn. apply acks_queue; [exact (queue_sends_queue k vs s [o] Hs Hv) | cbn [length]; rewrite map_length; lia].
Qed.
