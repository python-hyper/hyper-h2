From H2 Require Import Base.Prelude Model.ConnState.

Definition parity_of (client : bool) : Z := if client then 1 else 0.

(* nothing uses [Iout] and [Iin] *)
Section Mono.
Variable k : Z.
Definition Iout (c : conn) : Prop := k <= c_hi_out c.
Definition Iin (c : conn) : Prop := k <= c_hi_in c.
End Mono.
