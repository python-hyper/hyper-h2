From H2 Require Import Base.Prelude Base.PyDict Model.SettingsV Model.Settings.

Definition queue_of (k : Z) (s : settings) : list (option Z) := match dget k s with Some q => q | None => [None] end.

Lemma ssetitem_ok k v s : validate_setting k v = 0 -> ssetitem k v s = (dset k (queue_of k s ++ [Some v]) s, Ok tt).
Proof. intros H. unfold ssetitem. rewrite H. reflexivity. Qed.

Lemma ssetitem_invalid k v s : validate_setting k v <> 0 ->
  ssetitem k v s = (s, Err InvalidSettingsValueError (validate_setting k v) 0 false).
Proof. intros H. unfold ssetitem. destruct (validate_setting k v =? 0) eqn:E; [lia|]. reflexivity. Qed.

Fixpoint lookup (k : Z) (kvs : list (Z * Z)) : option Z :=
  match kvs with [] => None | (k', v) :: r => if k =? k' then Some v else lookup k r end.

Lemma lookup_notin k kvs : ~ In k (map fst kvs) -> lookup k kvs = None.
Proof.
  induction kvs as [|[k1 v1] r IH]; cbn [lookup map fst In]; intros Hn; [reflexivity|].
  destruct (Z.eqb_spec k k1) as [->|_]; [exfalso; auto | auto].
Qed.

(* [NoDup]: Settings.update takes a dict *)
Lemma supdate_effect kvs : forall s s1,
  NoDup (map fst kvs) -> supdate kvs s = (s1, Ok tt) ->
  forall k, dget k s1 = match lookup k kvs with
                        | Some v => Some (queue_of k s ++ [Some v])
                        | None => dget k s
                        end.
Proof.
  induction kvs as [|[k0 v0] r IH]; intros s s1 Hnd H k; cbn [supdate lookup] in *.
  - injection H as <-. reflexivity.
  - destruct (Z.eq_dec (validate_setting k0 v0) 0) as [Hv|Hv];
      [rewrite (ssetitem_ok _ _ _ Hv) in H | rewrite (ssetitem_invalid _ _ _ Hv) in H; discriminate].
    inversion Hnd as [|? ? Hnotin Hnd']; subst. rewrite (IH _ _ Hnd' H k). unfold queue_of. rewrite !dget_dset.
    destruct (Z.eqb_spec k k0) as [->|Hne]; [rewrite (lookup_notin _ _ Hnotin)|]; reflexivity.
Qed.

Definition ackq (q : list (option Z)) : list (option Z) :=
  match q with old :: ((_ :: _) as q') => q' | _ => q end.

(* acknowledge() entry by entry: a queue with a pending value loses its head, and reports (old, new) if the new head is a value *)
Lemma sacknowledge_eq s : sacknowledge s =
  (dmapv ackq s, flat_map (fun kq => match snd kq with old :: Some new :: _ => [(fst kq, old, new)] | _ => [] end) s).
Proof.
  induction s as [|[k q] r IH]; [reflexivity|]. cbn [sacknowledge]. rewrite IH. destruct q as [|old [|[new|] q2]]; reflexivity.
Qed.

Lemma sacknowledge_effect s k : dget k (fst (sacknowledge s)) = option_map ackq (dget k s).
Proof. rewrite sacknowledge_eq. apply dget_dmapv. Qed.

Definition settled (s : settings) : Prop := forall k q, dget k s = Some q -> exists o, q = [o].

Lemma update_then_ack kvs s s1 : settled s -> NoDup (map fst kvs) -> supdate kvs s = (s1, Ok tt) ->
  forall k, dget k (fst (sacknowledge s1)) = match lookup k kvs with Some v => Some [Some v] | None => dget k s end.
Proof.
  intros Hs Hnd Hu k. rewrite sacknowledge_effect, (supdate_effect kvs s s1 Hnd Hu k). unfold queue_of.
  destruct (dget k s) as [q|] eqn:Eq; [destruct (Hs k q Eq) as [o ->]|]; destruct (lookup k kvs); reflexivity.
Qed.
