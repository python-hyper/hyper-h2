From H2 Require Import Base.Prelude Base.PyDict Model.FsmTypes Gen.Tables Gen.Guards Model.Types Model.Stream
  Model.ConnState Model.Connection Proofs.ConnPrims.

(* _get_stream_by_id: an id that is not in the stream table raises StreamClosedError when it is at or below the
   watermark of its direction (closed and forgotten), NoSuchStreamError when it is above (never used) *)
Definition unknown_stream_error (c : conn) (sid : Z) : res unit :=
  if sid >? highest_for c sid then Err NoSuchStreamError 1 sid false else Err StreamClosedError 5 sid false.

Lemma windows_unknown sid c : dget sid (c_streams c) = None ->
  local_flow_control_window sid c = (c, match unknown_stream_error c sid with Err e a b d => Err e a b d | _ => Crash KeyError end) /\
  remote_flow_control_window sid c = (c, match unknown_stream_error c sid with Err e a b d => Err e a b d | _ => Crash KeyError end).
Proof.
  intros H. unfold local_flow_control_window, remote_flow_control_window. rewrite !lookup_unknown by exact H.
  unfold unknown_stream_error, lookup_error. destruct (_ >? _); split; reflexivity.
Qed.

(* the premise on the frame size limit holds after every history (MfsInv.frame_size_limit_after_any_history); with it the size
   assertion of _prepare_for_sending, the last step of these calls, cannot fail on a PING or RST_STREAM frame *)
Definition silent {A} (m : CM A) : Prop :=
  forall c c' r, 16384 <= c_max_out_frame c -> m c = (c', r) -> is_ok r = false -> c_out c' = c_out c.

Lemma silent_ping pl : silent (api_ping pl).
Proof.
  intros c c' r Hm H Hr. unfold api_ping in H. destruct (g_ping_len (zlen pl) true).
  { unfold bind, crash in H. injection H as <- _. reflexivity. }
  unfold bind at 1 in H. unfold ret at 1 in H. unfold bind at 1 in H. unfold cfsm in H.
  destruct (conn_transition (c_state c) CI_SEND_PING) as [t|]; [|injection H as <- _; reflexivity].
  rewrite prepare_small in H; [|destruct c; exact Hm|reflexivity]. injection H as _ <-. discriminate.
Qed.

Lemma silent_reset sid code : silent (api_reset_stream sid code).
Proof.
  intros c c' r Hm H Hr. unfold api_reset_stream in H. unfold bind at 1 in H. unfold cfsm in H.
  destruct (conn_transition (c_state c) CI_SEND_RST_STREAM) as [t|]; [|injection H as <- _; reflexivity].
  destruct (dget sid (c_streams (cset_state c t))) as [s|] eqn:Es; [|rewrite lookup_unknown in H by exact Es; injection H as <- _; reflexivity].
  rewrite (lookup_known _ _ _ _ Es) in H. unfold bind at 1 in H. rewrite (with_stream_some _ _ _ _ Es) in H.
  (* the only frames a stream's reset_stream returns: one RST_STREAM *)
  unfold reset_stream in H. unfold bind at 1 in H. destruct (fsm SI_SEND_RST_STREAM s) as [s1 [u|e co i b|p]]; try (injection H as <- _; reflexivity).
  cbn [bind get ret fst snd] in H. rewrite prepare_small in H; [|exact Hm|reflexivity]. injection H as _ <-. discriminate.
Qed.

(* fix 12650a7: a server's send_headers on an id that is not in the stream table raises exactly the lookup error and
   changes nothing at all (no stream object, no connection state change, nothing encoded, nothing emitted) *)
Lemma server_send_headers_unknown sid hs L es pw pd pe c :
  client c = false -> dget sid (c_streams c) = None ->
  api_send_headers sid hs L es pw pd pe c = (c, unknown_stream_error c sid).
Proof.
  intros Hc H. unfold api_send_headers. rewrite bind_get, Hc.
  exact (bind_lookup_error _ _ _ _ _ _ (lookup_unknown sid _ _ H)).
Qed.

Lemma server_send_headers_ok_known sid hs L es pw pd pe c c' :
  client c = false -> api_send_headers sid hs L es pw pd pe c = (c', Ok tt) -> dmem sid (c_streams c) = true.
Proof.
  intros Hc H. unfold dmem. destruct (dget sid (c_streams c)) eqn:E; [reflexivity|].
  rewrite (server_send_headers_unknown sid hs L es pw pd pe c Hc E) in H. unfold unknown_stream_error in H.
  destruct (sid >? highest_for c sid); discriminate.
Qed.
