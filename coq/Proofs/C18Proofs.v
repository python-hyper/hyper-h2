From H2 Require Import Base.Prelude Model.FsmTypes Model.Types Model.Headers Model.ConnState
  Model.Connection Proofs.Inv.

Definition ended_by_goaway (c' : conn) (code : Z) : Prop :=
  exists c1, c' = cset_out (cset_state c1 C_CLOSED) (c_out c1 ++ [FGoAway (c_hi_in c1) code 0]).

Lemma recv_except_goaway c1 res1 c' e code sid rst :
  recv_except c1 res1 = (c', Err e code sid rst) -> is_protocol_error e = true -> ended_by_goaway c' code.
Proof.
  rewrite recv_except_eq. intros H He. exists c1.
  destruct (goaway_code (translated res1)) as [code0|] eqn:E; [destruct (8 <=? _); [|discriminate]|]; injection H as <- Hr;
    rewrite Hr in E; cbn in E; rewrite He in E; [injection E as <-; reflexivity | discriminate].
Qed.

Lemma loop_err_goaway fs : forall acc c c' e code sid rst rem,
  recv_core fs acc c = (c', Err e code sid rst, rem) ->
  is_protocol_error e = true -> ended_by_goaway c' code.
Proof.
  induction fs as [|fb rest IH]; intros acc c c' e code sid rst rem; [discriminate|].
  rewrite recv_core_cons. destruct (recv_one fb c) as [[c1 [evs|e1 co1 s1 b1|p]] keep] eqn:E1; [apply IH | | discriminate].
  intros H; injection H as <- <- <- <- <- _. destruct (recv_one_except _ _ _ _ _ E1) as (c0 & r0 & Ee).
  exact (recv_except_goaway _ _ _ _ _ _ _ Ee).
Qed.

Lemma oversized_header_list_is_enhance_your_calm hs c :
  hl_size hs > c_dec_max_hls c ->
  snd (decode_headers (HDecoded hs) c) = Err DenialOfServiceError 11 0 false.
Proof.
  intros H. unfold decode_headers, bind, modify, get. cbn [c_dec_max_hls cset_dec_log].
  destruct (hl_size hs >? c_dec_max_hls c) eqn:E; [reflexivity|lia].
Qed.
