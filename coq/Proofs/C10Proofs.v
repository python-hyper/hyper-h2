From H2 Require Import Base.Prelude Base.PyDict Gen.Consts Gen.Guards Model.Types Model.Settings Model.StreamFSM
  Model.Stream Model.ConnState Model.Connection Proofs.ConnPrims.

(* the number of streams of parity [r] that count against MAX_CONCURRENT_STREAMS *)
Definition counts (r : Z) (kv : Z * stream) : bool := s_open (snd kv) && (fst kv mod 2 =? r).
Definition open_count (r : Z) (c : conn) : Z := zlen (filter (counts r) (c_streams c)).

Lemma open_not_closed s : s_open s = true -> s_closed s = false.
Proof. unfold s_open, s_closed. destruct (sm_state (s_sm s)); cbn; intros H; try reflexivity; discriminate. Qed.

Lemma filter_filter_weaker {A} (p q : A -> bool) (l : list A) :
  (forall x, p x = true -> q x = true) -> filter p (filter q l) = filter p l.
Proof.
  intros H. induction l as [|x l IH]; cbn [filter]; [reflexivity|].
  destruct (q x) eqn:Eq; cbn [filter].
  - destruct (p x); [f_equal|]; exact IH.
  - destruct (p x) eqn:Ep; [rewrite (H x Ep) in Eq; discriminate | exact IH].
Qed.

Lemma open_streams_eq r c : open_streams r c = (fst (open_streams r c), Ok (open_count r c)).
Proof. reflexivity. Qed.


(* the limit check of send_headers ([count] the outbound streams, [lim] the peer's limit) and of _receive_headers_frame (the
   inbound streams, the acknowledged local limit): the clean-up happens, and the call is refused iff count + 1 exceeds the limit *)
Lemma limit_check (count : CM Z) (g : Z -> Z -> bool -> bool) (lim : conn -> Z) r c :
  count c = open_streams r c -> (forall n l, g n l true = (n + 1 >? l)) -> lim (fst (open_streams r c)) = lim c ->
  (n <- count ;; c' <- get ;;
   if g n (lim c') true then fail TooManyStreamsError (exn_code TooManyStreamsError) 0 false else ret tt) c =
  (fst (open_streams r c), if open_count r c + 1 >? lim c then Err TooManyStreamsError 1 0 false else Ok tt).
Proof.
  intros Hc Hg Hl. rewrite (bind_ok_eq _ _ _ _ _ (eq_trans Hc (open_streams_eq r c))), bind_get, Hg, Hl.
  destruct (_ >? _); reflexivity.
Qed.
Definition outbound_check c :=
  limit_check open_outbound_streams g_send_headers_mcs (fun c => s_max_concurrent_streams (c_remote c)) (b2z (client c)) c
              eq_refl (fun _ _ => eq_refl) eq_refl.
Definition inbound_check c :=
  limit_check open_inbound_streams g_recv_headers_mcs (fun c => s_max_concurrent_streams (c_local c)) (b2z (negb (client c))) c
              eq_refl (fun _ _ => eq_refl) eq_refl.

(* [client c = true]: only clients open streams with send_headers (fix 12650a7) *)
Lemma send_headers_over_limit sid hs L es pw pd pe c :
  client c = true -> dmem sid (c_streams c) = false ->
  open_count (b2z (client c)) c + 1 > s_max_concurrent_streams (c_remote c) ->
  api_send_headers sid hs L es pw pd pe c = (fst (open_streams (b2z (client c)) c), Err TooManyStreamsError 1 0 false).
Proof.
  intros Hc Hm Hgt. pose proof (outbound_check c) as E. replace (_ >? _) with true in E by lia.
  unfold api_send_headers. rewrite bind_get, Hm. rewrite Hc in E |- *.
  rewrite bind_ret. exact (bind_not_ok _ _ _ _ _ E eq_refl).
Qed.

Lemma recv_headers_over_limit sid es p d c :
  dmem sid (c_streams c) = false ->
  open_count (b2z (negb (client c))) c + 1 > s_max_concurrent_streams (c_local c) ->
  recv_headers sid es p d c = (fst (open_streams (b2z (negb (client c))) c), Err TooManyStreamsError 1 0 false).
Proof.
  intros Hm Hgt. pose proof (inbound_check c) as E. replace (_ >? _) with true in E by lia.
  unfold recv_headers. rewrite bind_get, Hm. exact (bind_not_ok _ _ _ _ _ E eq_refl).
Qed.
