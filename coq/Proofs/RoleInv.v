(* The connection state machine agrees with the configured role, after EVERY history:
   a client-side connection is never SERVER_OPEN and a server-side one never CLIENT_OPEN (between two operations),
   and an IDLE connection has no stream objects.  This is what fixes 12650a7, 09dbf89, 4e7b916 and 1fed9f8 restore:
   before them each of send_headers on a server, HEADERS received by a client, advertise_alternative_service on a
   client and ALTSVC received by a server drove the state machine to the other role's state.

   The invariant admits a stream object only once the state machine has left IDLE: from there every write keeps it
   ([nonidle_upd]), so the six handlers that feed an [opening] input are followed with [wp] up to that input;
   everything else is [quiet].

   Inside receive_data the invariant is broken transiently (a client that receives HEADERS in IDLE is SERVER_OPEN
   until the ProtocolError it raises closes the connection): the frame hypothesis of Inv.api_receive_guarded has the
   except clause inside it for this. *)
From H2 Require Import Base.Prelude Base.PyDict Model.FsmTypes Gen.Tables Model.Types Model.Settings Model.Stream
  Model.ConnState Model.Connection Proofs.ConnPrims Proofs.Frame Proofs.FrameConn Proofs.Inv Proofs.InvTac Proofs.Wp
  Proofs.C29Proofs Proofs.AltSvcUpgradeProofs Proofs.RoleOpen Proofs.C22Full.

(* [Inv X c]: an IDLE connection holds no stream object and nothing remembered as closed, and [X role state] holds.
   [Rv]: the state is not the other role's open state (the invariant); [Nv]: and it is not IDLE.
   A predicate [QX X] of the projection [PR]: a write to any other field leaves the hypothesis up to computation. *)
Definition PR (c : conn) : bool * cstate * dict stream * dict (option closedby) :=
  (cfg_client (c_cfg c), c_state c, c_streams c, c_closed c).
Definition QX (X : bool -> cstate -> Prop) (p : bool * cstate * dict stream * dict (option closedby)) : Prop :=
  let '(b, s, ss, cl) := p in (s = C_IDLE -> ss = [] /\ cl = []) /\ X b s.
Definition Inv (X : bool -> cstate -> Prop) (c : conn) : Prop := QX X (PR c).

Definition Rv (b : bool) (s : cstate) : Prop := (b = true -> s <> C_SERVER_OPEN) /\ (b = false -> s <> C_CLIENT_OPEN).
Definition Nv (b : bool) (s : cstate) : Prop := Rv b s /\ s <> C_IDLE.
Definition role_inv : conn -> Prop := Inv Rv.
Definition role_nonidle : conn -> Prop := Inv Nv.

Lemma inv_weaken (X Y : bool -> cstate -> Prop) c : (forall b s, X b s -> Y b s) -> Inv X c -> Inv Y c.
Proof. unfold Inv, QX, PR. intros H [H1 H2]. split; [exact H1 | exact (H _ _ H2)]. Qed.
Lemma nonidle_role c : role_nonidle c -> role_inv c.
Proof. apply inv_weaken. intros b s [H _]. exact H. Qed.
Lemma Rv_closed b : Rv b C_CLOSED. Proof. split; intros; discriminate. Qed.
Lemma Nv_closed b : Nv b C_CLOSED. Proof. split; [apply Rv_closed|discriminate]. Qed.
(* nothing uses [Sv] and [Sv_closed] *)
Definition Sv (b : bool) (s : cstate) : Prop := Rv b s /\ (b = true \/ s <> C_IDLE).
Lemma Sv_closed b s : Sv b s -> Sv b C_CLOSED.
Proof. intros _. split; [apply Rv_closed|right; discriminate]. Qed.
Lemma closed_is_role c : c_state c = C_CLOSED -> role_inv c.
Proof. intros H. unfold role_inv, Inv, QX, PR. rewrite H. split; [discriminate|apply Rv_closed]. Qed.
Lemma role_cases c : role_inv c -> role_nonidle c \/ c_state c = C_IDLE /\ c_streams c = [] /\ c_closed c = [].
Proof.
  unfold role_inv, role_nonidle, Inv, QX, PR. intros [HJ HR].
  destruct (c_state c); [right; split; [reflexivity|exact (HJ eq_refl)]|left..]; (split; [exact HJ|split; [exact HR|discriminate]]).
Qed.

Lemma tr_into_idle s i : conn_transition s i = Some C_IDLE -> s = C_IDLE.
Proof. destruct s, i; cbn; intros H; try discriminate; reflexivity. Qed.
Lemma tr_from_open s i t : s <> C_IDLE -> conn_transition s i = Some t -> t = s \/ t = C_CLOSED.
Proof. destruct s, i; cbn; intros Hn H; try discriminate; try contradiction; injection H as <- ; auto. Qed.
(* the inputs after which a connection whose state agreed with role b is open in that role: the two push inputs for
   either role (the table admits each in one open state only), the three that leave IDLE for the role they leave it to *)
Definition opening (b : bool) (i : cinput) : bool :=
  match i with
  | CI_SEND_PUSH_PROMISE | CI_RECV_PUSH_PROMISE => true
  | CI_SEND_HEADERS => b
  | CI_RECV_HEADERS | CI_SEND_ALTERNATIVE_SERVICE => negb b
  | _ => false
  end.
Lemma tr_opening b i s t : opening b i = true -> Rv b s -> conn_transition s i = Some t -> Nv b t.
Proof.
  intros Ho [Ha Hb] Ht. destruct b, i; try discriminate Ho; destruct s; try discriminate Ht; injection Ht as <-;
    first [exfalso; apply Ha; reflexivity | exfalso; apply Hb; reflexivity | split; [split|]; discriminate].
Qed.

Definition quiet (c c' : conn) : Prop :=
  client c' = client c /\ (c_state c' = c_state c \/ c_state c' = C_CLOSED) /\
  (c_streams c = [] -> c_closed c = [] -> c_streams c' = [] /\ c_closed c' = []).
Lemma quiet_refl c : quiet c c. Proof. unfold quiet. auto. Qed.
Lemma quiet_trans a b c : quiet a b -> quiet b c -> quiet a c.
Proof.
  intros (H1 & H2 & H3) (K1 & K2 & K3). split; [congruence|]. split; [destruct K2 as [K2|K2]; [rewrite K2; exact H2|auto]|].
  intros Hs Hc. destruct (H3 Hs Hc). auto.
Qed.
Lemma quiet_eq c c' : PR c' = PR c -> quiet c c'.
Proof. unfold PR, quiet, client. intros [= -> -> -> ->]. auto. Qed.
Lemma quiet_inv c c' : quiet c c' -> role_inv c -> role_inv c'.
Proof.
  unfold role_inv, Inv, QX, PR, quiet, client. intros (H1 & H2 & H3) [HJ HR]. rewrite H1. destruct H2 as [H2|H2]; rewrite H2.
  - split; [|exact HR]. intros Hs. destruct (HJ Hs). auto.
  - split; [discriminate|apply Rv_closed].
Qed.

(* the writes of the model that are quiet: all but the three inputs that lead out of IDLE (those not [neutral]) and a new stream object *)
Lemma quiet_state c i : neutral i = true -> quiet c (cset_state c (next_state (c_state c) i)).
Proof.
  intros Hn. split; [reflexivity|]. split; [|auto]. cbn. unfold next_state.
  destruct (conn_transition _ _) as [t|] eqn:Et; [exact (tr_neutral _ _ _ Hn Et)|right; reflexivity].
Qed.
Lemma quiet_stream c sid s s' : dget sid (c_streams c) = Some s -> quiet c (cset_streams c (dset sid s' (c_streams c))).
Proof. intros E. split; [reflexivity|]. split; [left; reflexivity|]. intros Hs. rewrite Hs in E. discriminate. Qed.
Lemma quiet_streams c ss : map fst ss = map fst (c_streams c) -> quiet c (cset_streams c ss).
Proof. intros E. split; [reflexivity|]. split; [left; reflexivity|]. cbn. intros Hs. rewrite Hs in E. destruct ss; [auto|discriminate]. Qed.
Lemma quiet_reap c r : quiet c (fst (open_streams r c)).
Proof. split; [reflexivity|]. split; [left; reflexivity|]. cbn. intros -> ->. auto. Qed.
Lemma quiet_mfs c new g : quiet c (cset_streams (cset_max_out_frame c new) (dmapv g (c_streams c))).
Proof. split; [reflexivity|]. split; [left; reflexivity|]. cbn. intros -> ->. auto. Qed.
Lemma quiet_role {A} (m : CM A) : keeps quiet m -> pres_inv role_inv m.
Proof. intros Hm c c' r Hi H. exact (quiet_inv _ _ (Hm _ _ _ H) Hi). Qed.

(* [keeps quiet handler] from the lemma of FrameConn about the handler: its premises are writes that must be quiet (the state
   write of a neutral input is: FrameConn.tr_neutral) *)
Ltac by_quiet L :=
  first [ eapply L with (R := quiet) (wf := fun _ => True) | eapply L with (R := quiet) ]; intros;
  first [ assumption | exact I | exact (quiet_refl _) | eapply quiet_trans; eassumption | reflexivity | apply quiet_state; assumption
        | eapply quiet_stream; eassumption | apply quiet_streams; assumption | apply quiet_reap | apply quiet_mfs
        | apply quiet_eq; reflexivity ].

Lemma ri_terminate code : pres_inv role_inv (terminate_connection code). Proof. apply quiet_role. by_quiet k_terminate_connection. Qed.
Lemma plain_frame_role f : plain_frame f = true -> pres_inv role_inv (dispatch f).
Proof. intros Hp. apply quiet_role. by_quiet k_dispatch_plain. Qed.
Lemma plain_op_role o : plain_op o = true -> pres_inv role_inv (fun c => step c o).
Proof. intros Hp. apply quiet_role. by_quiet k_plain_op. Qed.

(* once the state machine has left IDLE only the role and the state matter, and no input leads back *)
Lemma nonidle_iff c : role_nonidle c <-> Nv (client c) (c_state c).
Proof. split; [exact (@proj2 _ _)|]. intros H. split; [intros Hi; destruct (proj2 H Hi)|exact H]. Qed.
Lemma Nv_next b s i : Nv b s -> Nv b (next_state s i).
Proof.
  intros H. unfold next_state. destruct (conn_transition s i) as [t|] eqn:Et; [|apply Nv_closed].
  destruct (tr_from_open _ _ _ (proj2 H) Et) as [-> | ->]; [exact H|apply Nv_closed].
Qed.
Lemma nonidle_upd wf c c' : upd wf c c' -> role_nonidle c -> role_nonidle c'.
Proof. intros u Hi. apply nonidle_iff in Hi. apply nonidle_iff. destruct u; try exact Hi. exact (Nv_next _ _ _ Hi). Qed.

Definition ends_in_role {A} (m : CM A) (c : conn) : Prop := wp m (fun _ => role_inv) role_inv role_inv c.
Lemma wp_run_role {A} (m : CM A) c : ends_in_role m c -> forall c' r, m c = (c', r) -> role_inv c'.
Proof. intros H c' r E. pose proof (wp_run _ _ _ _ _ _ _ H E) as X. destruct r; exact X. Qed.
Lemma role_wp {A} (m : CM A) : (forall c, role_inv c -> ends_in_role m c) -> pres_inv role_inv m.
Proof. intros H c c' r Hc. exact (wp_run_role m c (H c Hc) c' r). Qed.
Lemma wp_nonidle {A} (m : CM A) c : pres_inv role_nonidle m -> role_nonidle c -> ends_in_role m c.
Proof.
  intros Hm Hc. unfold ends_in_role, wp. destruct (m c) as [c' r] eqn:E.
  pose proof (nonidle_role _ (Hm _ _ _ Hc E)). destruct r; assumption.
Qed.
Lemma wp_quiet {A B} (m : CM A) (k : A -> CM B) c :
  keeps quiet m -> role_inv c -> (forall a c1, client c1 = client c -> role_inv c1 -> ends_in_role (k a) c1) -> ends_in_role (bind m k) c.
Proof.
  intros Hm Hc Hk. apply wp_bind. unfold wp at 1. destruct (m c) as [c1 r] eqn:E.
  pose proof (Hm _ _ _ E) as Hq. pose proof (quiet_inv _ _ Hq Hc) as H1. destruct r; [exact (Hk _ _ (proj1 Hq) H1)|exact H1..].
Qed.
Lemma wp_opens {B} i (post : CM B) c :
  opening (client c) i = true -> role_inv c -> pres_inv role_nonidle post -> ends_in_role (cfsm i ;;; post) c.
Proof.
  intros Ho [HJ HR] Hp. apply wp_bind. unfold wp at 1, cfsm. destruct (conn_transition (c_state c) i) as [t|] eqn:Et.
  - apply wp_nonidle; [exact Hp|]. apply nonidle_iff. exact (tr_opening _ _ _ _ Ho HR Et).
  - apply closed_is_role. reflexivity.
Qed.

Lemma ri_push sid pr hs L : pres_inv role_inv (api_push_stream sid pr hs L).
Proof.
  apply role_wp. intros c Hc. unfold api_push_stream. apply wp_bind, wp_get.
  destruct (s_enable_push (c_remote c) =? 0); [exact Hc|]. apply wp_bind, wp_ret.
  apply wp_opens; [reflexivity|exact Hc|walk (nonidle_upd (fun _ => True))].
Qed.

(* [keeps quiet m] for a computation written with the primitives *)
Ltac quiet_walk := walk_with quiet_refl quiet_trans ltac:(fun L => by_quiet L).

(* send_headers: a server's call for an id it does not know changes nothing (fix 12650a7), and an IDLE connection knows no id *)
Lemma ri_send_headers sid hs L es pw pd pe : pres_inv role_inv (api_send_headers sid hs L es pw pd pe).
Proof.
  intros c c' r Hc H. destruct (client c) eqn:Ec.
  - revert c' r H. apply wp_run_role. unfold api_send_headers. apply wp_bind, wp_get. rewrite Ec. apply wp_bind, wp_ret.
    apply wp_quiet; [quiet_walk|exact Hc|intros _ c1 E1 H1].
    apply wp_opens; [rewrite E1, Ec; reflexivity|exact H1|walk (nonidle_upd (fun _ => True))].
  - destruct (role_cases _ Hc) as [Hn | (_ & Hs & _)]; [apply nonidle_role; revert H; revert Hn; by_writes (nonidle_upd (fun _ => True)) k_api_send_headers|].
    rewrite server_send_headers_unknown in H by (rewrite ?Hs; auto). injection H as <- _. exact Hc.
Qed.

(* advertise_alternative_service: a client's call changes nothing (fix 4e7b916) *)
Lemma ri_altsvc f o s : pres_inv role_inv (api_advertise_alt_svc f o s).
Proof.
  intros c c' r Hc H. destruct (client c) eqn:Ec.
  - destruct (client_cannot_advertise f o s c Ec) as (r0 & E & _). rewrite E in H. injection H as <- _. exact Hc.
  - revert c' r H. apply wp_run_role. unfold api_advertise_alt_svc. destruct o, s; try exact Hc;
      (apply wp_bind, wp_get; rewrite Ec; apply wp_bind, wp_ret;
       apply wp_opens; [rewrite Ec; reflexivity|exact Hc|walk (nonidle_upd (fun _ => True))]).
Qed.

(* PUSH_PROMISE: refused by the state machine unless the connection is open (as a client) *)
Lemma ri_recv_push_promise sid pr d : pres_inv role_inv (recv_push_promise sid pr d).
Proof.
  apply role_wp. intros c Hc. unfold recv_push_promise. apply wp_bind, wp_get.
  destruct (s_enable_push (c_local c) =? 0); [exact Hc|]. apply wp_bind, wp_ret.
  apply wp_quiet; [by_quiet k_decode_headers|exact Hc|intros hs c1 _ H1].
  apply wp_opens; [reflexivity|exact H1|walk (nonidle_upd (fun _ => True))].
Qed.

(* h2c upgrade: the input fed to the state machine is the one of the configured role *)
Lemma ri_upgrade hdr : pres_inv role_inv (api_initiate_upgrade hdr).
Proof.
  apply role_wp. intros c Hc. unfold api_initiate_upgrade.
  apply wp_quiet; [by_quiet k_initiate_connection|exact Hc|intros _ c1 _ H1]. apply wp_bind, wp_get.
  apply wp_quiet; [quiet_walk|exact H1|intros _ c2 E2 H2].
  apply wp_opens; [rewrite E2; destruct (client c1); reflexivity|exact H2|walk (nonidle_upd (fun _ => True))].
Qed.

(* the one place where the invariant is broken for a moment: a client in IDLE that receives HEADERS has fed RECV_HEADERS to
   the state machine (state SERVER_OPEN) when it finds out that the frame would open a stream; it then raises a
   ProtocolError (fix 09dbf89) or StreamIDTooLowError, with still no stream object and nothing remembered as closed *)
Definition transient {A} (c1 : conn) (r : res A) : Prop :=
  c_streams c1 = [] /\ c_closed c1 = [] /\
  exists co i b, r = Err ProtocolError co i b \/ r = Err StreamIDTooLowError co i b.

Lemma recv_headers_role sid es p d c c1 r :
  role_inv c -> recv_headers sid es p d c = (c1, r) -> role_inv c1 \/ transient c1 r.
Proof.
  intros Hc H. destruct (role_cases _ Hc) as [Hn | (Hs & Hss & Hcl)]; [left; apply nonidle_role; revert H; revert Hn; by_writes (nonidle_upd (fun _ => True)) k_recv_headers|].
  (* IDLE: the part before the state machine is quiet *)
  unfold recv_headers in H. unfold bind at 1, get at 1 in H.
  apply (bind_split quiet quiet_trans _ _ c) in H; [|apply quiet_refl|quiet_walk].
  destruct H as [Hq | (c2 & u & Hq & H)]; [left; exact (quiet_inv _ _ Hq Hc)|].
  apply (bind_split quiet quiet_trans _ _ c) in H; [|exact Hq|by_quiet k_decode_headers]. clear Hq.
  destruct H as [Hq | (c3 & hs & Hq & H)]; [left; exact (quiet_inv _ _ Hq Hc)|].
  destruct (client c) eqn:Ec.
  2:{ (* a server: the input opens the connection *)
    left. revert c1 r H. apply wp_run_role, wp_opens; [rewrite (proj1 Hq), Ec; reflexivity|exact (quiet_inv _ _ Hq Hc)|walk (nonidle_upd (fun _ => True))]. }
  (* a client: the part after the state machine refuses *)
  destruct Hq as (Eb & Est & Hemp). destruct (Hemp Hss Hcl) as [Hs3 Hc3]. rewrite Hs in Est. rewrite Ec in Eb.
  unfold bind at 1, cfsm in H. destruct Est as [Est | Est]; rewrite Est in H; cbn [conn_transition] in H; cbv beta iota in H.
  - right. unfold bind at 1, get at 1 in H. apply client_refuses_unknown_headers in H as (-> & He); [|exact Eb|cbn; rewrite Hs3; reflexivity].
    split; [exact Hs3|split; [exact Hc3|exact He]].
  - left. injection H as <- _. apply closed_is_role. reflexivity.
Qed.

Lemma dispatch_role f c c1 r : role_inv c -> dispatch f c = (c1, r) -> role_inv c1 \/ transient c1 r.
Proof.
  intros Hi H. destruct (plain_frame f) eqn:Ep; [left; exact (plain_frame_role f Ep _ _ _ Hi H)|].
  destruct f; try discriminate Ep; [exact (recv_headers_role _ _ _ _ _ _ _ Hi H) | left; exact (ri_recv_push_promise _ _ _ _ _ _ Hi H)].
Qed.

(* the errors of the transient state pass through _receive_frame unchanged, because with no stream object and nothing
   remembered as closed no stream was "closed by" anything *)
Lemma frame_role f c c1 r : role_inv c -> receive_frame f c = (c1, r) -> role_inv c1 \/ transient c1 r.
Proof.
  intros Hi H. destruct (dispatch f c) as [c0 r0] eqn:Ed.
  destruct (dispatch_role f c c0 r0 Hi Ed) as [H0 | (Hs & Hc & co & i & b & Hr)].
  - left. exact (quiet_inv _ _ (after_dispatch quiet quiet_refl quiet_trans (fun c v => quiet_eq c _ eq_refl) _ _ _ _ _ _ Ed H) H0).
  - right. unfold receive_frame in H. rewrite Ed in H. assert (Hnr : closed_by_reset c0 i = false /\ closed_by_end c0 i = false).
    { unfold closed_by_reset, closed_by_end, stream_closed_by. rewrite Hs, Hc. cbn. auto. }
    destruct Hnr as [Hn1 Hn2]. destruct Hr as [-> | ->]; [|rewrite Hn1, Hn2 in H]; injection H as <- <-; (split; [exact Hs|split; [exact Hc|eauto 6]]).
Qed.

Lemma terminate_closes code c c' r : terminate_connection code c = (c', r) -> c_state c' = C_CLOSED.
Proof. rewrite terminate_closed_form. intros H. injection H as <- _. reflexivity. Qed.

(* the errors of the transient state are ProtocolErrors: the except clause closes the connection *)
Lemma except_role c1 (r1 : res (list event)) c2 r2 :
  role_inv c1 \/ transient c1 r1 -> recv_except c1 r1 = (c2, r2) -> role_inv c2.
Proof.
  intros [Hi | (_ & _ & co & i & b & Hr)] H; [exact (recv_except_inv role_inv ri_terminate _ _ _ _ Hi H)|].
  rewrite recv_except_eq in H. apply closed_is_role. destruct Hr as [-> | ->]; injection H as <- _; reflexivity.
Qed.

Lemma api_receive_role fs : pres_inv role_inv (api_receive fs).
Proof.
  intros c c' r Hc. apply (api_receive_guarded role_inv (fun _ => True)); [intros; apply Forall_True|intros c0 v H0 _; exact H0|exact ri_terminate| |exact Hc|apply Forall_True].
  intros f _ c0 c1 r1 H0 E c2 r2. exact (except_role _ _ _ _ (frame_role _ _ _ _ H0 E)).
Qed.

Theorem step_role c o c' r : role_inv c -> step c o = (c', r) -> role_inv c'.
Proof.
  intros Hc H. pose proof (plain_op_role o) as K. destruct o; try exact (K eq_refl _ _ _ Hc H); clear K; cbn [step] in H.
  1-4: revert H; revert Hc; apply pinv_answer; auto using ri_upgrade, ri_send_headers, ri_push, ri_altsvc.
  destruct (step_receive _ _ _ _ H) as [r1 E]. exact (api_receive_role fs _ _ _ Hc E).
Qed.

Theorem run_role os : forall c, role_inv c -> role_inv (run c os).
Proof.
  intros c Hc. apply (run_steps role_inv (fun _ => True) (fun c o c' r Hi _ => step_role c o c' r Hi)); [exact Hc|].
  apply Forall_True.
Qed.

Lemma role_init cfg : role_inv (conn_new cfg).
Proof. split; [auto|split; discriminate]. Qed.

Theorem connection_state_agrees_with_the_role cfg os :
  let c := run (conn_new cfg) os in
  (client c = true -> c_state c <> C_SERVER_OPEN) /\ (client c = false -> c_state c <> C_CLIENT_OPEN) /\
  (c_state c = C_IDLE -> c_streams c = [] /\ c_closed c = []).
Proof. intros c. destruct (run_role os _ (role_init cfg)) as [HJ [Ha Hb]]. auto. Qed.

Theorem run_keeps_cfg cfg os : c_cfg (run (conn_new cfg) os) = cfg.
Proof. apply (run_upd_all (fun c => c_cfg c = cfg)); [|reflexivity]. intros c c' [] Hc; exact Hc. Qed.

(* with Proofs/C22Full.v: after any history, a push_stream call that succeeds was made by a SERVER *)
Corollary only_servers_push cfg os sid promised hs L c' :
  api_push_stream sid promised hs L (run (conn_new cfg) os) = (c', Ok tt) -> cfg_client cfg = false.
Proof.
  intros H. pose proof (C22Full.push_stream_only_when_the_rules_hold _ _ _ _ _ _ H) as (_ & Hs & _).
  destruct (connection_state_agrees_with_the_role cfg os) as (Ha & _ & _).
  unfold client in Ha. rewrite run_keeps_cfg in Ha.
  destruct (cfg_client cfg) eqn:Ec; [|reflexivity]. exfalso. exact (Ha eq_refl Hs).
Qed.
