From H2 Require Import Model.Stream.

Lemma set_out_win_only s w :
  s_out_win (set_out_win s w) = w /\ s_sm (set_out_win s w) = s_sm s /\ s_id (set_out_win s w) = s_id s /\
  s_in_wm (set_out_win s w) = s_in_wm s /\ s_exp_cl (set_out_win s w) = s_exp_cl s /\ s_act_cl (set_out_win s w) = s_act_cl s.
Proof. destruct s; repeat split. Qed.
