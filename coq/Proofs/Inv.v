(* The loop of receive_data one frame at a time, and lifting an invariant that the frame handlers keep to the whole call. *)
From H2 Require Import Base.Prelude Model.FsmTypes Gen.Guards Model.Types Model.StreamFSM Model.ConnState
  Model.Connection Proofs.ConnPrims Proofs.Frame Proofs.FrameConn.

(* [recv_one fb c]: the state after the frame and the except clauses, the frame's events or the exception that
   ends the call, and whether the frame stays at the head of the buffer (a frame the buffer itself refuses does). *)
Definition recv_one (fb : rframe * Z) (c : conn) : conn * res (list event) * bool :=
  match frame_buffer_check (c_max_in_frame c) (fst fb) (snd fb) with
  | FBReject r => let '(c1, res1) := (dispatch r ;;; ret []) c in (recv_except c1 res1, true)
  | FBYield => let '(c1, res1) := receive_frame (fst fb) c in (recv_except c1 res1, false)
  end.

(* receive_data's except clauses: hyperframe's InvalidPaddingError becomes a ProtocolError; a ProtocolError (or subclass)
   closes the connection with its own code and is raised again; everything else passes *)
Definition translated (r : res (list event)) : res (list event) := match r with Crash ForeignError => perr | _ => r end.
Definition goaway_code (r : res (list event)) : option Z :=
  match r with Err e code _ _ => if is_protocol_error e then Some code else None | _ => None end.
Lemma recv_except_eq c r :
  recv_except c r =
  match goaway_code (translated r) with
  | None => (c, r)
  | Some code => (cset_out (cset_state c C_CLOSED) (c_out c ++ [FGoAway (c_hi_in c) code 0]),
                  if 8 <=? c_max_out_frame c then translated r else Crash AssertionError)
  end.
Proof.
  unfold recv_except, goaway_code, translated.
  destruct r as [evs|e code sid rst|p]; [reflexivity | destruct (is_protocol_error e) | destruct p]; try reflexivity;
    rewrite terminate_closed_form; cbv zeta; destruct (8 <=? _); reflexivity.
Qed.

(* with room for the GOAWAY (a body of 8 bytes) the outcome is the translated one *)
Lemma recv_except_res c r c' r' : 8 <= c_max_out_frame c -> recv_except c r = (c', r') -> r' = translated r.
Proof.
  intros Hm. rewrite recv_except_eq. destruct (goaway_code (translated r)) eqn:E; intros [= _ <-].
  - destruct (8 <=? c_max_out_frame c) eqn:E8; [reflexivity | lia].
  - destruct r as [| |[]]; try reflexivity. discriminate E.
Qed.

Lemma recv_except_ok c1 res1 c2 evs : recv_except c1 res1 = (c2, Ok evs) -> res1 = Ok evs /\ c2 = c1.
Proof.
  rewrite recv_except_eq. destruct (goaway_code (translated res1)) eqn:E; [destruct (8 <=? _)|]; intros [= <- Hr]; [|split; congruence].
  rewrite Hr in E. discriminate.
Qed.

Lemma recv_core_cons fb rest acc c :
  recv_core (fb :: rest) acc c =
  let '(c1, r, keep) := recv_one fb c in
  match r with
  | Ok evs => recv_core rest (acc ++ evs) c1
  | _ => (c1, r, if keep then fb :: rest else rest)
  end.
Proof.
  destruct fb as [f blen]. cbn [recv_core]. unfold recv_one. cbn [fst snd].
  (* either way an outcome that is not Ok goes to recv_except, which answers Ok to Ok only *)
  destruct (frame_buffer_check (c_max_in_frame c) f blen) as [|rj];
    [destruct (receive_frame f c) as [c1 r1] | destruct ((dispatch rj ;;; ret []) c) as [c1 r1]];
    (destruct r1 as [evs|e code sid rst|p]; [reflexivity| |];
     destruct (recv_except c1 _) as [c2 [evs|a b d g|q]] eqn:Ee; try reflexivity; destruct (recv_except_ok _ _ _ _ Ee); discriminate).
Qed.

(* the frame buffer yields every frame but the two that stand for its own refusals, and refuses with one of those
   (the match of the first case is C17Full.yielded) *)
Lemma frame_buffer_check_cases limit f blen :
  match frame_buffer_check limit f blen with
  | FBYield => match f with RTooLarge | RBadBody _ => False | _ => True end
  | FBReject rj => rj = RTooLarge \/ exists k, rj = RBadBody k
  end.
Proof.
  unfold frame_buffer_check. destruct (bad_stream_association f); [eauto|]. destruct (g_fb_len blen limit); [eauto|].
  destruct (bad_promised_id f); [eauto|]. destruct f; eauto.
Qed.

Lemma rejected limit f blen rj c :
  frame_buffer_check limit f blen = FBReject rj ->
  exists r, (dispatch rj ;;; ret (@nil event)) c = (c, r) /\ is_ok r = false /\ forall p, r = Crash p -> p = ForeignError.
Proof.
  intros Ec. pose proof (frame_buffer_check_cases limit f blen) as Hrj. rewrite Ec in Hrj.
  destruct Hrj as [->|[k ->]]; cbn [dispatch]; unfold bind.
  - eexists. repeat split; discriminate.
  - destruct (k =? 0); [|destruct (k =? 1)]; eexists; (split; [reflexivity|split; [reflexivity|]]); intros p H;
      [discriminate | discriminate | injection H as <-; reflexivity].
Qed.

(* one frame: the buffer yields it, _receive_frame runs and the except clauses see its outcome; or the buffer refuses it,
   which changes nothing, and the except clauses see the refusal *)
Lemma recv_one_cases fb c c1 r keep : recv_one fb c = (c1, r, keep) ->
  (exists c0 r0, frame_buffer_check (c_max_in_frame c) (fst fb) (snd fb) = FBYield /\
                 receive_frame (fst fb) c = (c0, r0) /\ recv_except c0 r0 = (c1, r)) \/
  (exists r0, is_ok r0 = false /\ (forall p, r0 = Crash p -> p = ForeignError) /\ recv_except c r0 = (c1, r)).
Proof.
  unfold recv_one. destruct (frame_buffer_check _ _ _) as [|rj] eqn:Ec.
  - destruct (receive_frame (fst fb) c) as [c0 r0]. destruct (recv_except c0 r0) as [c2 r2] eqn:Ee. intros [= <- <- _]. left. eauto.
  - destruct (rejected _ _ _ _ c Ec) as (r0 & -> & Hn & Hf). destruct (recv_except c r0) as [c2 r2] eqn:Ee. intros [= <- <- _]. right. eauto.
Qed.
Lemma recv_one_except fb c c1 r keep : recv_one fb c = (c1, r, keep) -> exists c0 r0, recv_except c0 r0 = (c1, r).
Proof. intros H. destruct (recv_one_cases _ _ _ _ _ H) as [(c0 & r0 & _ & _ & E) | (r0 & _ & _ & E)]; eauto. Qed.

Section Rule.
Variable W : rframe * Z -> Prop.
Variable I : conn -> Prop.
Variable Q : conn -> res (list event) -> Prop.
Hypothesis one : forall fb c c1 r keep, W fb -> I c -> recv_one fb c = (c1, r, keep) -> if is_ok r then I c1 else Q c1 r.
Hypothesis done : forall c acc, I c -> Q c (Ok acc).

Lemma recv_core_rule fs : forall acc c c' r rem,
  Forall W fs -> I c -> recv_core fs acc c = (c', r, rem) -> Q c' r /\ Forall W rem.
Proof.
  induction fs as [|fb rest IH]; intros acc c c' r rem Hw Hi.
  - intros H; injection H as <- <- <-. split; [apply done; exact Hi | constructor].
  - rewrite recv_core_cons. inversion Hw as [|? ? Hfb Hrest]; subst.
    destruct (recv_one fb c) as [[c1 r1] keep] eqn:E1. pose proof (one _ _ _ _ _ Hfb Hi E1) as H1.
    destruct r1; [exact (IH _ _ _ _ _ Hrest H1) | |]; intros H; injection H as <- <- <-;
      (split; [exact H1 | destruct keep; assumption]).
Qed.
End Rule.

Section Lift.
Variable I : conn -> Prop.
Variable wf : rframe -> Prop.     (* what the wire format guarantees about a received frame *)

Definition pres_inv {A} (m : CM A) : Prop := forall c c' r, I c -> m c = (c', r) -> I c'.

Definition wf_buf (c : conn) : Prop := Forall (fun e => wf (fst e)) (c_inbuf c).
Hypothesis I_wf : forall c, I c -> wf_buf c.
Hypothesis I_inbuf : forall c v, I c -> Forall (fun e => wf (fst e)) v -> I (cset_inbuf c v).
Hypothesis I_terminate : forall code, pres_inv (terminate_connection code).

Lemma recv_except_inv c1 res1 c2 r2 : I c1 -> recv_except c1 res1 = (c2, r2) -> I c2.
Proof.
  intros Hi. rewrite recv_except_eq. destruct (goaway_code _) as [code|]; intros [= <- _]; [|exact Hi].
  exact (I_terminate code _ _ _ Hi (terminate_closed_form code c1)).
Qed.

(* one frame with receive_data's except clauses around it: a handler may break the invariant if its exception mends it *)
Hypothesis I_guard : forall f, wf f -> forall c c1 r1, I c -> receive_frame f c = (c1, r1) ->
  forall c2 r2, recv_except c1 r1 = (c2, r2) -> I c2.

Lemma recv_one_inv fb c c1 r keep : wf (fst fb) -> I c -> recv_one fb c = (c1, r, keep) -> I c1.
Proof.
  intros Hf Hi H. destruct (recv_one_cases _ _ _ _ _ H) as [(c0 & r0 & _ & Er & Ee) | (r0 & _ & _ & Ee)];
    [exact (I_guard _ Hf _ _ _ Hi Er _ _ Ee) | exact (recv_except_inv _ _ _ _ Hi Ee)].
Qed.

Lemma recv_core_inv fs acc c c' r rem :
  I c -> Forall (fun e => wf (fst e)) fs -> recv_core fs acc c = (c', r, rem) ->
  I c' /\ Forall (fun e => wf (fst e)) rem.
Proof.
  intros Hi Hw. apply (recv_core_rule (fun e => wf (fst e)) I (fun c _ => I c)); auto.
  intros fb c0 c1 r1 keep Hf Hi0 E. destruct (is_ok r1); exact (recv_one_inv _ _ _ _ _ Hf Hi0 E).
Qed.

Lemma api_receive_guarded fs c c' r :
  I c -> Forall (fun e => wf (fst e)) fs -> api_receive fs c = (c', r) -> I c'.
Proof.
  intros Hi Hfs H. unfold api_receive in H.
  destruct (recv_core (c_inbuf c ++ fs) [] c) as [[c1 r1] rem] eqn:E. injection H as <- _.
  assert (Hall : Forall (fun e => wf (fst e)) (c_inbuf c ++ fs)).
  { apply Forall_app. split; [exact (I_wf c Hi) | exact Hfs]. }
  destruct (recv_core_inv _ _ _ _ _ _ Hi Hall E) as [Hi1 Hrem].
  apply I_inbuf; assumption.
Qed.
End Lift.

(* the usual case: the handlers keep the invariant themselves *)
Lemma guard_of_frame (I : conn -> Prop) (wf : rframe -> Prop) :
  (forall code, pres_inv I (terminate_connection code)) -> (forall f, wf f -> pres_inv I (receive_frame f)) ->
  forall f, wf f -> forall c c1 r1, I c -> receive_frame f c = (c1, r1) -> forall c2 r2, recv_except c1 r1 = (c2, r2) -> I c2.
Proof. intros Ht Hf f Hwf c c1 r1 Hi E c2 r2. exact (recv_except_inv I Ht _ _ _ _ (Hf f Hwf _ _ _ Hi E)). Qed.

Lemma api_receive_inv (I : conn -> Prop) (wf : rframe -> Prop) :
  (forall c, I c -> wf_buf wf c) -> (forall c v, I c -> Forall (fun e => wf (fst e)) v -> I (cset_inbuf c v)) ->
  (forall f, wf f -> pres_inv I (receive_frame f)) -> (forall code, pres_inv I (terminate_connection code)) ->
  forall fs c c' r, I c -> Forall (fun e => wf (fst e)) fs -> api_receive fs c = (c', r) -> I c'.
Proof. intros Hw Hb Hf Ht. exact (api_receive_guarded I wf Hw Hb Ht (guard_of_frame I wf Ht Hf)). Qed.

Lemma pres_inv_of_keeps (I : conn -> Prop) {A} (m : CM A) : keeps (imp I) m -> pres_inv I m.
Proof. intros H c c' r Hc E. exact (H _ _ _ E Hc). Qed.
Lemma keeps_of_pres_inv (I : conn -> Prop) {A} (m : CM A) : pres_inv I m -> keeps (imp I) m.
Proof. intros H c c' r E Hc. exact (H _ _ _ Hc E). Qed.

Lemma receive_frame_keeps_inbuf f : preserves c_inbuf (receive_frame f).
Proof. apply k_receive_frame with (R := peq c_inbuf) (wf := fun _ => True); unread. Qed.
