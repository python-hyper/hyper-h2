(* The "only when" half of the push rule, for EVERY connection state and every argument:
   a push_stream call that succeeds was made on a server-open connection whose peer allows push, on an odd
   (client-initiated) parent that is open or half-closed (remote) and does not play the client role, with an even
   promised id above the watermark. *)
From H2 Require Import Base.Prelude Base.PyDict Model.FsmTypes Gen.Tables Gen.Guards Model.Types Model.Settings
  Model.StreamFSM Model.Stream Model.ConnState Model.Connection Proofs.ConnPrims.

Definition push_rules (sid promised : Z) (c : conn) : Prop :=
  s_enable_push (c_remote c) <> 0 /\
  c_state c = C_SERVER_OPEN /\
  sid mod 2 = 1 /\
  promised mod 2 = 0 /\ promised > highest_for c promised /\
  exists s, dget sid (c_streams c) = Some s /\
            (sm_state (s_sm s) = S_OPEN \/ sm_state (s_sm s) = S_HALF_CLOSED_REMOTE) /\
            client_is (s_sm s) true = false.

Lemma fsm_push_ok s s1 evs : fsm SI_SEND_PUSH_PROMISE s = (s1, Ok evs) -> build_flags evs <> Crash IndexError ->
  (sm_state (s_sm s) = S_OPEN \/ sm_state (s_sm s) = S_HALF_CLOSED_REMOTE) /\ client_is (s_sm s) true = false.
Proof.
  unfold fsm, process_input. intros H Hb.
  destruct (sm_state (s_sm s)) eqn:Es; cbn [stream_transition] in H.
  - (* idle: no event, so build_flags would raise *)
    unfold run_effect in H. destruct (client_none _); cbn in H.
    + injection H as _ <-. exfalso. apply Hb. reflexivity.
    + discriminate.
  - discriminate.
  - discriminate.
  - unfold run_effect in H. destruct (client_is (set_state (s_sm s) S_OPEN) true) eqn:Ec; cbn in H; [discriminate|].
    split; [left; reflexivity|]. destruct (s_sm s); exact Ec.
  - unfold run_effect in H. destruct (client_is (set_state (s_sm s) S_HALF_CLOSED_REMOTE) true) eqn:Ec; cbn in H; [discriminate|].
    split; [right; reflexivity|]. destruct (s_sm s); exact Ec.
  - discriminate.
  - unfold run_effect in H. cbn in H. discriminate.
Qed.

Lemma cfsm_push_ok c c1 u : cfsm CI_SEND_PUSH_PROMISE c = (c1, Ok u) -> c_state c = C_SERVER_OPEN /\ c1 = cset_state c C_SERVER_OPEN.
Proof.
  unfold cfsm. destruct (c_state c) eqn:E; cbn [conn_transition]; intros H; try discriminate.
  injection H as <- _. split; reflexivity.
Qed.

Lemma dget_other_parity {V} sid promised (v : V) (d : @dict V) : sid mod 2 = 1 -> promised mod 2 = 0 ->
  dget sid (dset promised v d) = dget sid d.
Proof. intros H1 H2. apply dget_dset_other. intros ->. lia. Qed.

(* C09_opening_a_stream_checks_order_and_parity gives the watermark clauses; here the stream table is needed *)
Lemma begin_new_stream_new sid allowed c c' u : begin_new_stream sid allowed c = (c', Ok u) ->
  sid > highest_for c sid /\ sid mod 2 = allowed /\
  exists s, c_streams c' = dset sid s (c_streams c).
Proof.
  intros H. apply begin_new_stream_ok in H as (H1 & H2 & ->). split; [exact H1|]. split; [exact H2|].
  apply opened_streams.
Qed.

Theorem push_stream_only_when_the_rules_hold sid promised hs L c c' :
  api_push_stream sid promised hs L c = (c', Ok tt) -> push_rules sid promised c.
Proof.
  intros H. unfold api_push_stream in H. unfold bind at 1, get at 1 in H.
  apply bind_ok in H as (c1 & u1 & E1 & H). destruct (s_enable_push (c_remote c) =? 0) eqn:Ep; [discriminate|]. injection E1 as <- _.
  apply bind_ok in H as (c2 & u2 & E2 & H). apply cfsm_push_ok in E2 as [Hs ->]. rewrite <- Hs, cset_state_same in H.
  destruct (dget sid (c_streams c)) as [s|] eqn:Hd;
    [rewrite (lookup_known _ _ _ _ Hd) in H
    | rewrite (lookup_unknown _ _ _ Hd) in H; unfold lookup_error in H; destruct (_ >? _); discriminate].
  apply bind_ok in H as (c4 & u4 & E4 & H). unfold g_push_recursive in E4. destruct (sid mod 2 =? 0) eqn:Eo; [discriminate|]. injection E4 as <- _.
  apply bind_ok in H as (c5 & u5 & E5 & H). apply begin_new_stream_new in E5 as (Hhigh & Heven & sn & E5).
  unfold bind at 1, get at 1 in H. apply bind_ok in H as (c7 & r & E7 & H). apply bind_ok in H as (c8 & u8 & _ & H).
  apply bind_ok in H as (c9 & frames & E9 & _).
  (* the parent is still where it was: the new stream has the other parity *)
  assert (Hodd : sid mod 2 = 1) by (assert (0 <= sid mod 2 < 2) by (apply Z.mod_pos_bound; lia); lia).
  assert (Hd5 : dget sid (c_streams c5) = Some s) by (rewrite E5, dget_other_parity; assumption).
  rewrite (with_stream_some _ _ _ _ Hd5) in E7.
  destruct (push_stream_in_band (c_cfg c5) promised hs L s) as [s' [r0 e0]] eqn:Eb. injection E7 as _ <-.
  unfold push_stream_in_band in Eb. destruct (fsm SI_SEND_PUSH_PROMISE s) as [s1 [evs| |]] eqn:Ef; [|injection Eb as _ <- _; discriminate..].
  assert (Hnb : build_flags evs <> Crash IndexError) by (intros Hc; rewrite Hc in Eb; injection Eb as _ <- _; discriminate).
  destruct (fsm_push_ok _ _ _ Ef Hnb) as [Hst Hcl].
  repeat split; auto; try lia. exists s. auto.
Qed.

(* read backwards: a call made where one of the rules fails does not succeed *)
Corollary push_refused sid promised hs L c :
  ~ push_rules sid promised c -> is_ok (snd (api_push_stream sid promised hs L c)) = false.
Proof.
  intros Hn. destruct (api_push_stream sid promised hs L c) as [c' [[]| |]] eqn:E; [|reflexivity..].
  destruct (Hn (push_stream_only_when_the_rules_hold _ _ _ _ _ _ E)).
Qed.
