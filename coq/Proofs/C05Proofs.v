From H2 Require Import Base.Prelude Gen.Consts Model.Windows Model.WmHist Proofs.ConstFacts.

Definition InvAll (g : gh) : Prop :=
  wm_cur (g_w g) <= wm_max (g_w g) /\
  0 <= wm_bp (g_w g) /\
  0 <= wm_max (g_w g) /\
  g_A g <= g_C g /\
  g_K g + wm_bp (g_w g) <= g_A g /\                       (* never credits more than was acknowledged *)
  wm_max (g_w g) <= wm_cur (g_w g) + wm_bp (g_w g) + (g_C g - g_A g) /\   (* nothing is lost while room is left *)
  Forall (fun i => 0 < i) (g_incs g).

Local Ltac projs := cbn [g_w g_C g_A g_K g_incs wm_max wm_cur wm_bp fst snd] in *.

(* WindowManager._maybe_update_window's condition for emitting a WINDOW_UPDATE, at [b] bytes processed *)
Definition due (mx cur b : Z) : bool := ((cur =? 0) && (b >? Z.min 1024 (mx / 4))) || (b >=? mx / 2).

(* what a step that does not raise does, in closed form *)
Lemma wstep_eq mx cur bp C A K incs o g' : wstep (mkgh (mkwm mx cur bp) C A K incs) o = Some g' ->
  match o with
  | Consume n => n <= cur /\ g' = mkgh (mkwm mx (cur - n) bp) (C + n) A K incs
  | Ack n =>
      let b := bp + n in let inc := Z.min b (mx - cur) in
      if (b =? 0) || negb (due mx cur b) then g' = mkgh (mkwm mx cur b) C (A + n) K incs
      else g' = mkgh (mkwm mx (cur + inc) 0) C (A + n) (K + inc) (if inc =? 0 then incs else inc :: incs)
  | Open n => cur + n <= LARGEST_FLOW_CONTROL_WINDOW /\ g' = mkgh (mkwm (Z.max mx (cur + n)) (cur + n) bp) C A K incs
  | Delta d => cur + d <= LARGEST_FLOW_CONTROL_WINDOW /\ g' = mkgh (mkwm (mx + d) (cur + d) bp) C A K incs
  end.
Proof.
  unfold wstep, wm_delta, process_bytes, window_consumed, window_opened, maybe_update_window, wm_increment, due. projs.
  destruct o as [n|n|n|d]; projs.
  3,4: destruct (_ >? _) eqn:E; projs; [discriminate|]; intros [= <-]; (split; [lia | reflexivity]).
  - destruct (cur - n <? 0) eqn:E; [discriminate|]. intros [= <-]. split; [lia | reflexivity].
  - destruct (bp + n =? 0); projs; [intros [= <-]; reflexivity|]. cbn [orb].
    destruct (_ || _); projs; cbn [negb]; [|intros [= <-]; reflexivity].
    destruct (_ =? 0) eqn:E; intros [= <-]; [apply Z.eqb_eq in E; rewrite E, !Z.add_0_r|]; reflexivity.
Qed.

Lemma wstep_InvAll g o g' : InvAll g -> wf_wop g o -> wstep g o = Some g' -> InvAll g'.
Proof.
  destruct g as [[mx cur bp] C A K incs]. unfold InvAll. intros (H1 & H2 & H3 & H4 & H5 & H6 & H7) Hwf Hs. apply wstep_eq in Hs. cbv zeta in Hs.
  destruct o as [n|n|n|d]; cbn [wf_wop] in Hwf; projs.
  2:{ destruct (_ || _); subst g'; projs; [repeat split; try lia; assumption|].
      destruct (_ =? 0) eqn:E; repeat split; try lia; try assumption. constructor; [lia | exact H7]. }
  all: destruct Hs as [_ ->]; projs; repeat split; try lia; assumption.
Qed.

Lemma InvAll_init m : 0 <= m -> InvAll (gh_init m).
Proof. intros H. unfold InvAll, gh_init, wm_new. projs. repeat split; try lia. constructor. Qed.

Lemma wrun_inv (J : gh -> Prop) (ok : wop -> Prop) :
  (forall g o g', J g -> wf_wop g o -> ok o -> wstep g o = Some g' -> J g') ->
  forall os g g', J g -> wf_hist g os -> Forall ok os -> wrun g os = Some g' -> J g'.
Proof.
  intros Hstep. induction os as [|o os IH]; intros g g' Hj Hw Hn Hr; cbn [wrun wf_hist] in *.
  - injection Hr as <-. exact Hj.
  - destruct Hw as [Hwo Hw]. inversion Hn as [|? ? Hno Hns]; subst.
    destruct (wstep g o) as [g1|] eqn:S; [|discriminate]. exact (IH g1 g' (Hstep _ _ _ Hj Hwo Hno S) Hw Hns Hr).
Qed.

Lemma wrun_InvAll os g g' : InvAll g -> wf_hist g os -> wrun g os = Some g' -> InvAll g'.
Proof.
  intros Hi Hw. apply (wrun_inv InvAll (fun _ => True)); auto.
  - intros g0 o g1 Hj Hwo _. exact (wstep_InvAll g0 o g1 Hj Hwo).
  - apply Forall_True.
Qed.

(* the 2^31-1 ceiling: kept by every history without a local INITIAL_WINDOW_SIZE change ([wrun_InvCeil_no_delta]); mixing
   such changes with manual increments breaks it (Properties/C05_refuted.v) *)
Definition InvCeil (g : gh) : Prop := wm_max (g_w g) <= 2147483647.

Lemma wstep_max g o g' : wstep g o = Some g' ->
  match o with
  | Open n => wm_max (g_w g') = Z.max (wm_max (g_w g)) (wm_cur (g_w g) + n) /\ wm_cur (g_w g) + n <= 2147483647
  | Delta d => wm_max (g_w g') = wm_max (g_w g) + d
  | _ => wm_max (g_w g') = wm_max (g_w g)
  end.
Proof.
  destruct g as [[mx cur bp] C A K incs]. pose proof LARGEST_val as Lv. intros Hs. apply wstep_eq in Hs. cbv zeta in Hs.
  destruct o as [n|n|n|d]; [| destruct (_ || _) in Hs; subst g'; reflexivity | |]; destruct Hs as [Hn ->]; projs; auto with zarith.
Qed.

Lemma wrun_InvCeil_no_delta os g g' : InvCeil g -> wf_hist g os -> no_delta os -> wrun g os = Some g' -> InvCeil g'.
Proof.
  apply (wrun_inv InvCeil). unfold InvCeil. intros g0 o g1 Hc _ Hnd Hs. apply wstep_max in Hs. destruct o; try contradiction; lia.
Qed.

(* one step without a manual increment: the maximum follows the current INITIAL_WINDOW_SIZE ([wstep_InvTrack]; it is not
   lifted to histories and nothing uses it) *)
Definition InvTrack (iws : Z) (g : gh) : Prop := wm_max (g_w g) = iws.

Definition iws_after (iws : Z) (o : wop) : Z := match o with Delta d => iws + d | _ => iws end.

Lemma wstep_InvTrack g o g' iws :
  InvAll g -> InvTrack iws g -> (match o with Open _ => False | _ => True end) -> wstep g o = Some g' ->
  InvTrack (iws_after iws o) g'.
Proof.
  unfold InvTrack. intros _ <- Hnd Hs. apply wstep_max in Hs. destruct o; try contradiction; exact Hs.
Qed.

Definition InvLive (g : gh) : Prop :=
  0 <= wm_cur (g_w g) /\ (g_A g = g_C g -> 0 < wm_max (g_w g) -> 0 < wm_cur (g_w g)).

Lemma wstep_InvLive g o g' :
  InvAll g -> InvLive g -> wf_wop g o -> (match o with Delta d => 0 <= d | _ => True end) ->
  wstep g o = Some g' -> InvLive g'.
Proof.
  destruct g as [[mx cur bp] C A K incs]. unfold InvAll, InvLive. intros (H1 & H2 & H3 & H4 & H5 & H6 & H7) [Hc Hl] Hwf Hnd Hs.
  apply wstep_eq in Hs. cbv zeta in Hs. destruct o as [n|n|n|d]; cbn [wf_wop] in Hwf; projs.
  2:{ destruct (bp + n =? 0) eqn:E0; cbn [orb] in Hs; [subst g'; projs; split; intros; lia|].
      destruct (due mx cur (bp + n)) eqn:Ed; cbn [negb] in Hs; subst g'; projs; (split; [lia|]); intros HA Hm; [lia|].
      (* all acknowledged, no update emitted: were the window zero, the update would have been due *)
      unfold due in Ed. Z.div_mod_to_equations. lia. }
  all: destruct Hs as [Hn ->]; projs; split; intros; lia.
Qed.

Lemma InvLive_init m : 0 <= m -> InvLive (gh_init m).
Proof. intros. unfold InvLive, gh_init, wm_new. projs. split; intros; lia. Qed.

Lemma wrun_InvLive os g g' :
  InvAll g -> InvLive g -> wf_hist g os -> no_negative_delta os -> wrun g os = Some g' -> InvLive g'.
Proof.
  intros Hi Hl Hw Hn Hr.
  refine (proj2 (wrun_inv (fun g => InvAll g /\ InvLive g) _ _ os g g' (conj Hi Hl) Hw Hn Hr)).
  intros g0 o g1 [Hj Hk] Hwo Hno S. split; [exact (wstep_InvAll _ _ _ Hj Hwo S) | exact (wstep_InvLive _ _ _ Hj Hk Hwo Hno S)].
Qed.
