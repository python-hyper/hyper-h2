(* where a non-protocol exception could come from on the receive path, and why it does not. *)
From H2 Require Import Base.Prelude Gen.Consts Gen.Tables Gen.Guards Model.Types Model.StreamFSM Model.Headers
  Model.Stream Model.ConnState Model.Connection Proofs.ConnPrims Proofs.Inv Proofs.Wp.

Definition verdict (r : vres) : Prop := match r with VOk _ | VProtocolError => True | _ => False end.

Lemma check_ws_verdict n v : verdict (check_ws n v).
Proof.
  unfold check_ws. destruct n as [|c n0]; [exact I|]. destruct (_ || _); [exact I|].
  destruct v as [|d v0]; [exact I|]. destruct (_ || _); exact I.
Qed.
Lemma step_pseudo_verdict s n v : verdict (step_pseudo s n v).
Proof.
  unfold step_pseudo. destruct (starts_colon n); [|exact I]. destruct (mem_bytes n (vs_pseudo s)); [exact I|].
  destruct (vs_regular s); [exact I|]. destruct (negb _); exact I.
Qed.
Lemma step_common_verdict f s n v : verdict (step_common f s n v).
Proof.
  unfold step_common. destruct (check_te n v); [exact I|]. destruct (check_conn n); [exact I|].
  pose proof (step_pseudo_verdict s n v) as H. destruct (step_pseudo s n v); try exact H. destruct (check_path f n v); exact I.
Qed.
Lemma step_inbound_verdict f s n v : verdict (step_inbound f s n v).
Proof.
  unfold step_inbound. destruct (check_upper n); [exact I|].
  pose proof (check_ws_verdict n v) as H. destruct (check_ws n v); try exact H. apply step_common_verdict.
Qed.

Lemma step_inbound_full_no_index cfg f s n v : step_inbound_full cfg f s n v <> VIndexError.
Proof.
  unfold step_inbound_full. destruct (cfg_validate_in cfg); [|destruct (_ && _); discriminate].
  pose proof (step_inbound_verdict f s n v) as H. destruct (step_inbound f s n v); try discriminate; [destruct (_ && _); discriminate | destruct H].
Qed.

Lemma run_steps_no_index step : (forall s n v, step s n v <> VIndexError) ->
  forall hs s passed, snd (fst (run_steps step s hs passed)) <> PIndexError.
Proof.
  intros Hs. induction hs as [|[[n v] ni] r IH]; intros s passed; cbn [run_steps].
  - cbn. discriminate.
  - pose proof (Hs s n v) as H. destruct (step s n v) as [s1| | |]; cbn; try discriminate; try contradiction. apply IH.
Qed.

Theorem inbound_pipeline_never_index_error cfg f hs : inbound_pipeline cfg f hs <> IIndexError.
Proof.
  unfold inbound_pipeline.
  pose proof (run_steps_no_index (step_inbound_full cfg f) (step_inbound_full_no_index cfg f)
                (if cfg_normalize_in cfg then combine_cookies hs else hs) vs0 []) as H.
  destruct (run_steps _ _ _ _) as [[passed r] s]. cbn in H. destruct r; try discriminate; [|contradiction].
  destruct (_ && _); discriminate.
Qed.

Theorem process_received_headers_never_crashes cfg f hs p : process_received_headers cfg f hs <> Crash p.
Proof.
  unfold process_received_headers. pose proof (inbound_pipeline_never_index_error cfg f hs) as H.
  destruct (inbound_pipeline cfg f hs); try discriminate. contradiction.
Qed.

Theorem decode_headers_never_crashes d c c' r : decode_headers d c = (c', r) -> forall p, r <> Crash p.
Proof.
  intros H p. unfold decode_headers, bind, modify, get in H. destruct d as [hs|].
  - destruct (hl_size hs >? _); injection H as _ <-; discriminate.
  - injection H as _ <-. discriminate.
Qed.

(* [8 <= c_max_out_frame]: the except clauses of receive_data queue a GOAWAY with an 8-byte body, which has to fit
   (ConnPrims.terminate_ok).  On this path [ForeignError] is hyperframe's InvalidPaddingError. *)
Theorem padding_error_is_translated c1 c2 r2 :
  8 <= c_max_out_frame c1 -> recv_except c1 (Crash ForeignError) = (c2, r2) -> r2 = perr.
Proof. exact (recv_except_res c1 (Crash ForeignError) c2 r2). Qed.

Theorem h2_exception_stays_protocol_error c1 e code sid rst c2 r2 :
  8 <= c_max_out_frame c1 -> recv_except c1 (Err e code sid rst) = (c2, r2) -> r2 = Err e code sid rst.
Proof. exact (recv_except_res c1 (Err e code sid rst) c2 r2). Qed.

Theorem rejected_frames_raise_protocol_errors kind c :
  snd ((dispatch (RBadBody kind)) c) = perr \/
  snd ((dispatch (RBadBody kind)) c) = Err FrameDataMissingError (exn_code FrameDataMissingError) 0 false \/
  snd ((dispatch (RBadBody kind)) c) = Crash ForeignError.
Proof.
  unfold dispatch. destruct (kind =? 0); [left; reflexivity|]. destruct (kind =? 1); [right; left; reflexivity|].
  right; right; reflexivity.
Qed.

Theorem oversized_frame_raises_frame_too_large c :
  snd (dispatch RTooLarge c) = Err FrameTooLargeError (exn_code FrameTooLargeError) 0 false.
Proof. reflexivity. Qed.

Definition never_crashes {A} (m : CM A) : Prop := forall c c' r, m c = (c', r) -> forall p, r <> Crash p.

Lemma nc_fail {A} e code sid rst : never_crashes (@fail conn A e code sid rst).
Proof. intros c c' r H p. injection H as _ <-. discriminate. Qed.
Lemma never_crashes_of_nc {A} (m : CM A) Q : (forall c, nc m Q c) -> never_crashes m.
Proof. intros H c c' r. exact (nc_run m Q c c' r (H c)). Qed.
Lemma cfsm_nc i c (Q : unit -> conn -> Prop) : (forall t, Q tt (cset_state c t)) -> nc (cfsm i) Q c.
Proof. intros HQ. unfold nc, wp. rewrite cfsm_eq. destruct (conn_transition _ _); [apply HQ | exact I]. Qed.

Theorem priority_frames_never_crash sid pr : never_crashes (recv_priority sid pr).
Proof.
  apply (never_crashes_of_nc _ (fun _ _ => True)). intros c. unfold recv_priority. apply wp_bind, cfsm_nc. intros t.
  destruct pr as [[dep w] ex]. destruct (g_recv_prio_self dep sid); exact I.
Qed.
