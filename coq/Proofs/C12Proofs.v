From H2 Require Import Base.Prelude Gen.Consts Model.SettingsV Spec.Rfc65.

Lemma validate_spec id v : 0 <= v ->
  (setting_ok id v /\ validate_setting id v = 0) \/ (~ setting_ok id v /\ validate_setting id v = mandated_code id).
Proof.
  intros Hv. unfold validate_setting, setting_ok, mandated_code, in01,
    SC_ENABLE_PUSH, SC_INITIAL_WINDOW_SIZE, SC_MAX_FRAME_SIZE, SC_MAX_HEADER_LIST_SIZE,
    SC_ENABLE_CONNECT_PROTOCOL, EC_PROTOCOL_ERROR, EC_FLOW_CONTROL_ERROR.
  change (2^31 - 1) with 2147483647. change (2^14) with 16384. change (2^24 - 1) with 16777215.
  destruct (id =? 2) eqn:E2; [destruct ((v =? 0) || (v =? 1)) eqn:B; [left|right]; destruct (id =? 4) eqn:E4; lia|].
  destruct (id =? 4) eqn:E4; [destruct ((0 <=? v) && (v <=? 2147483647)) eqn:B; [left|right]; lia|].
  destruct (id =? 5) eqn:E5; [destruct ((16384 <=? v) && (v <=? 16777215)) eqn:B; [left|right]; lia|].
  destruct (id =? 6) eqn:E6; [destruct (v <? 0) eqn:B; [lia|left; lia]|].
  destruct (id =? 8) eqn:E8; [destruct ((v =? 0) || (v =? 1)) eqn:B; [left|right]; lia|].
  left. lia.
Qed.

Lemma mandated_code_nonzero id : mandated_code id <> 0.
Proof. unfold mandated_code. destruct (id =? 4); discriminate. Qed.

Lemma validate_zero_iff id v : 0 <= v -> (validate_setting id v = 0 <-> setting_ok id v).
Proof.
  intros Hv. pose proof (mandated_code_nonzero id). destruct (validate_spec id v Hv) as [[A B]|[A B]]; rewrite B; tauto.
Qed.

Lemma validate_unconstrained id v : 0 <= v -> ~ In id constrained_ids -> validate_setting id v = 0.
Proof.
  intros Hv Hn. apply validate_zero_iff; [exact Hv|]. unfold setting_ok. cbn in Hn.
  repeat split; intros; exfalso; apply Hn; lia.
Qed.
