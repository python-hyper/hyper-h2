From H2 Require Import Base.Prelude Base.PyDict Gen.Guards Model.Types Model.Stream Model.ConnState Model.Connection
  Proofs.ConnPrims Proofs.InvTac.

Definition fs_of (len : Z) (pad : option Z) : Z := len + match pad with Some p => p + 1 | None => 0 end.
Definition pad_ok (pad : option Z) : Prop := match pad with Some p => 0 <= p <= 255 | None => True end.

Lemma pad_guard_false pad : pad_ok pad ->
  g_send_data_pad (opt_default 0 pad) (match pad with Some _ => true | None => false end) = false.
Proof. unfold g_send_data_pad, pad_ok. destruct pad as [p|]; cbn [opt_default]; intros H; [|reflexivity]. lia. Qed.

Lemma pad_guard_true pad : ~ pad_ok pad ->
  g_send_data_pad (opt_default 0 pad) (match pad with Some _ => true | None => false end) = true.
Proof. unfold g_send_data_pad, pad_ok. destruct pad as [p|]; cbn [opt_default]; intros H; [lia|tauto]. Qed.

Lemma lfcw_live sid c s : dget sid (c_streams c) = Some s ->
  local_flow_control_window sid c = (c, Ok (Z.min (c_out_win c) (s_out_win s))).
Proof.
  intros H. rewrite lfcw_eq, H. reflexivity.
Qed.

(* hyperframe 6.1 delivers a WINDOW_UPDATE only with 1 <= window_increment <= 2^31-1 (WindowUpdateFrame.parse_body);
   0 <= inc is all the invariant needs *)
Definition wf_rframe (f : rframe) : Prop :=
  match f with RWindowUpdate _ inc => 0 <= inc | _ => True end.

Definition wf_op (o : op) : Prop :=
  match o with OReceive fs => Forall (fun e => wf_rframe (fst e)) fs | _ => True end.

Definition Inv03b (c : conn) : Prop := 0 <= c_out_win c /\ Forall (fun e => wf_rframe (fst e)) (c_inbuf c).

(* the window is written in two places: send_data lowers it by what fitted, a WINDOW_UPDATE of the wire format raises it;
   the frames written back to the buffer are those of the operation *)
Theorem run_inv03b os : forall c, Inv03b c -> Forall wf_op os -> Inv03b (run c os).
Proof.
  (* [wf_op] above is [InvTac.wf_op wf_rframe] up to conversion *)
  apply (run_upd Inv03b wf_rframe); [intros c [_ H]; exact H|].
  intros c c' [] [Hw Hb]; try exact (conj Hw Hb); split; try assumption; cbn [c_out_win cset_out_win wf_rframe] in *; lia.
Qed.

Lemma inv03b_init cfg : Inv03b (conn_new cfg).
Proof.
  split; [|constructor]. unfold conn_new. cbn [c_out_win].
  destruct (cfg_client cfg); vm_compute; intros H; discriminate.
Qed.
