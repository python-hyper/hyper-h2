(* byte-stream chunking does not matter (inbound, for the frames and for the client preface), the header-block buffer is
   bounded, and data_to_send partitions the output buffer (outbound).  The parsers are arbitrary (Section variables of
   Model/FrameBuffer.v). *)
From H2 Require Import Base.Prelude Gen.Consts Gen.Guards Model.Types Model.FrameBuffer.

Section FBProofs.
Variable parse_hdr : bytes -> option (nat * Z * Z * Z).
Variable parse_body : Z -> Z -> Z -> bytes -> bres.
Variables (S E : Type).
Variable limit : S -> Z.
Variable consume : S -> wframe -> S * option E.

Notation step1 := (step1 parse_hdr parse_body).
Notation drain := (drain parse_hdr parse_body S E limit consume).
Notation drain_all := (drain_all parse_hdr parse_body S E limit consume).
Notation feed := (feed parse_hdr parse_body S E limit consume).

Lemma firstn_app_le {A} n (d m : list A) : (n <= length d)%nat -> firstn n (d ++ m) = firstn n d.
Proof. intros H. rewrite firstn_app. replace (n - length d)%nat with 0%nat by lia. apply app_nil_r. Qed.
Lemma skipn_app_le {A} n (d m : list A) : (n <= length d)%nat -> skipn n (d ++ m) = skipn n d ++ m.
Proof. intros H. rewrite skipn_app. replace (n - length d)%nat with 0%nat by lia. reflexivity. Qed.

Lemma hdr_guard (n : nat) : g_fb_hdr (Z.of_nat n) = (n <? 9)%nat.
Proof. unfold g_fb_hdr. lia. Qed.
Lemma body_guard (n : nat) len : g_fb_body (Z.of_nat n) (Z.of_nat len) = (n <? len + 9)%nat.
Proof. unfold g_fb_body. lia. Qed.

Lemma step1_adv mx h d o h' r : step1 mx h d = Adv o h' r ->
  exists len f, (len + 9 <= length d)%nat /\ r = skipn (len + 9) d /\ update_header_buffer h f = inr (h', o).
Proof.
  unfold FrameBuffer.step1. destruct (g_fb_hdr _); [discriminate|].
  destruct (parse_hdr (firstn 9 d)) as [[[[len ty] fl] sid]|]; [|discriminate].
  rewrite body_guard. destruct (Nat.ltb_spec (length d) (len + 9)) as [|Ll]; [discriminate|]. destruct (g_fb_len _ _); [discriminate|].
  destruct (parse_body _ _ _ _); try discriminate.
  destruct (update_header_buffer _ _) as [[e he]|[h1 o1]] eqn:U; [discriminate|].
  intros H; injection H as <- <- <-. eauto.
Qed.
Lemma step1_adv_shorter mx h d o h' r : step1 mx h d = Adv o h' r -> (length r + 9 <= length d)%nat.
Proof. intros H. destruct (step1_adv _ _ _ _ _ _ H) as (len & f & L & -> & _). rewrite skipn_length. lia. Qed.

(* Unless the pass is waiting for more bytes (Stop) it has seen a whole frame, and bytes behind that frame are
   carried along untouched. *)
Definition step_app (st : step) (m : bytes) : step :=
  match st with Stop => Stop | Fail e h r => Fail e h (r ++ m) | Adv o h r => Adv o h (r ++ m) end.

Lemma step1_app mx h d m : step1 mx h d <> Stop -> step1 mx h (d ++ m) = step_app (step1 mx h d) m.
Proof.
  unfold FrameBuffer.step1. rewrite !hdr_guard, app_length.
  destruct (Nat.ltb_spec (length d) 9) as [|L9]; [congruence|].
  replace (length d + length m <? 9)%nat with false by lia.
  rewrite firstn_app_le by exact L9.
  destruct (parse_hdr (firstn 9 d)) as [[[[len ty] fl] sid]|]; [|reflexivity].
  rewrite !body_guard. destruct (Nat.ltb_spec (length d) (len + 9)) as [|Ll]; [congruence|].
  replace (length d + length m <? len + 9)%nat with false by lia.
  destruct (g_fb_len _ _); [reflexivity|].
  rewrite (skipn_app_le 9), firstn_app_le by (rewrite ?skipn_length; lia).
  destruct (parse_body _ _ _ _); try reflexivity.
  destruct (update_header_buffer _ _) as [[e he]|[h1 o1]]; intros _; cbn [step_app]; rewrite skipn_app_le by lia; reflexivity.
Qed.

Lemma drain_S n s h d : drain (Datatypes.S n) s h d =
  match step1 (limit s) h d with
  | Stop => (s, None, (h, d))
  | Fail e h' r => (s, Some (inl e), (h', r))
  | Adv None h' r => drain n s h' r
  | Adv (Some f) h' r =>
      let '(s', x) := consume s f in
      match x with None => drain n s' h' r | Some e => (s', Some (inr e), (h', r)) end
  end.
Proof. reflexivity. Qed.

Lemma drain_fuel n1 : forall n2 s h d, (length d < n1)%nat -> (length d < n2)%nat -> drain n1 s h d = drain n2 s h d.
Proof.
  induction n1 as [|n1 IH]; intros n2 s h d H1 H2; [lia|]. destruct n2 as [|n2]; [lia|]. rewrite !drain_S.
  destruct (step1 (limit s) h d) as [|e he re|o h' r] eqn:N; auto. pose proof (step1_adv_shorter _ _ _ _ _ _ N).
  destruct o as [f|].
  - destruct (consume s f) as [s' [e|]]; [reflexivity|]. apply IH; lia.
  - apply IH; lia.
Qed.

(* induction over the fuel of the short buffer [d]; the run on [d ++ m] has more fuel, which after each frame is brought
   back to the fuel of [drain_all] on what is left ([F], by [drain_fuel]) *)
Lemma drain_app n : forall s h d m s1 e h1 r, (length d < n)%nat -> drain n s h d = (s1, e, (h1, r)) ->
  match e with
  | Some x => drain_all s h (d ++ m) = (s1, Some x, (h1, r ++ m))
  | None => drain_all s h (d ++ m) = drain_all s1 h1 (r ++ m)
  end.
Proof.
  unfold FrameBuffer.drain_all.
  induction n as [|n IH]; intros s h d m s1 e h1 r Hn H; [lia|]. rewrite drain_S in H.
  destruct (step1 (limit s) h d) as [|x hx rx|o h' r0] eqn:N.
  - injection H as <- <- <- <-. reflexivity.
  - injection H as <- <- <- <-. rewrite drain_S, step1_app, N by congruence. reflexivity.
  - pose proof (step1_adv_shorter _ _ _ _ _ _ N) as Hl.
    assert (F: forall s', drain (length (d ++ m)) s' h' (r0 ++ m) = drain (Datatypes.S (length (r0 ++ m))) s' h' (r0 ++ m)).
    { intros s'. apply drain_fuel; rewrite !app_length; lia. }
    rewrite drain_S, step1_app, N by congruence. cbn [step_app].
    destruct o as [f|].
    + destruct (consume s f) as [s' [x|]].
      * injection H as <- <- <- <-. reflexivity.
      * rewrite F. exact (IH s' h' r0 m s1 e h1 r ltac:(lia) H).
    + rewrite F. exact (IH s h' r0 m s1 e h1 r ltac:(lia) H).
Qed.

Lemma drain_rest_clean n : forall s h d s1 h1 r, (length d < n)%nat -> drain n s h d = (s1, None, (h1, r)) ->
  drain_all s1 h1 r = (s1, None, (h1, r)).
Proof.
  intros s h d s1 h1 r Hn H. pose proof (drain_app n s h d [] s1 None h1 r Hn H) as A. rewrite !app_nil_r in A.
  rewrite <- A, <- H. apply drain_fuel; lia.
Qed.

(* The chunking theorem: feeding any split of the bytes, calling the receiver on every frame as soon as it is
   complete, is the same as handing over the whole byte string at once — the receiver ends in the same state
   (so it saw the same frames in the same order and emitted the same bytes and events), the same first
   exception is raised at the same frame, and the same undelivered bytes and header-block frames remain.
   The receiver's state may change the frame-size limit between any two frames. *)
Theorem chunking_irrelevant cs : forall s h buf,
  drain_all s h buf = (s, None, (h, buf)) ->
  feed s h buf cs = drain_all s h (buf ++ concat cs).
Proof.
  induction cs as [|c cs IH]; intros s h buf Hb; cbn [FrameBuffer.feed concat].
  - rewrite app_nil_r. symmetry; exact Hb.
  - destruct (drain_all s h (buf ++ c)) as [[s1 e] [h1 r]] eqn:D.
    pose proof (drain_app _ s h (buf ++ c) (concat cs) s1 e h1 r (Nat.lt_succ_diag_r _) D) as A.
    rewrite <- app_assoc in A. destruct e as [x|].
    + rewrite A. reflexivity.
    + pose proof (drain_rest_clean _ _ _ _ _ _ _ (Nat.lt_succ_diag_r _) D) as Hr.
      rewrite (IH s1 h1 r Hr). symmetry. exact A.
Qed.

(* from any quiescent state (what a previous call left behind) *)
Corollary any_two_chunkings_from s h buf cs1 cs2 :
  drain_all s h buf = (s, None, (h, buf)) -> concat cs1 = concat cs2 -> feed s h buf cs1 = feed s h buf cs2.
Proof. intros Hq Eq. rewrite !chunking_irrelevant by exact Hq. rewrite Eq. reflexivity. Qed.

Corollary any_two_chunkings s cs1 cs2 : concat cs1 = concat cs2 -> feed s [] [] cs1 = feed s [] [] cs2.
Proof. exact (any_two_chunkings_from s [] [] cs1 cs2 eq_refl). Qed.

(* the header-block buffer never holds more than CONTINUATION_BACKLOG frames while the frame buffer raises no exception *)
Lemma uhb_bounded h f h' o : update_header_buffer h f = inr (h', o) -> zlen h' <= CONTINUATION_BACKLOG.
Proof.
  unfold update_header_buffer, g_fb_backlog, CONTINUATION_BACKLOG, zlen. destruct h as [|first h0].
  - destruct (_ && _); intros H; injection H as <- _; cbn [length]; lia.
  - destruct (negb _); [discriminate|]. destruct (true && _) eqn:E0; [discriminate|].
    destruct (has_flag _ _); intros H; injection H as <- _; cbn [app length] in *; lia.
Qed.

(* a header block that already has CONTINUATION_BACKLOG frames is refused whatever comes next, END_HEADERS or not *)
Lemma long_block_refused h f : h <> [] -> zlen h >= CONTINUATION_BACKLOG -> exists h', update_header_buffer h f = inl (EProtocol, h').
Proof.
  intros Hne Hlen. unfold update_header_buffer. destruct h as [|first h0]; [contradiction|].
  destruct (negb _); [eexists; reflexivity|]. unfold g_fb_backlog.
  replace (zlen ((first :: h0) ++ [f]) >? 64) with true; [eexists; reflexivity|].
  symmetry. unfold zlen in *. rewrite app_length. cbn [length] in *. unfold CONTINUATION_BACKLOG in Hlen. lia.
Qed.

Theorem header_buffer_bounded n : forall s h d s1 e h1 r,
  zlen h <= CONTINUATION_BACKLOG -> drain n s h d = (s1, e, (h1, r)) ->
  (forall x, e <> Some (inl x)) -> zlen h1 <= CONTINUATION_BACKLOG.
Proof.
  induction n as [|n IH]; intros s h d s1 e h1 r Hh H He.
  - injection H as _ _ <- _. exact Hh.
  - rewrite drain_S in H. destruct (step1 (limit s) h d) as [|y hy ry|o h' r0] eqn:N.
    + injection H as _ _ <- _. exact Hh.
    + injection H as _ <- _ _. exfalso. exact (He y eq_refl).
    + destruct (step1_adv _ _ _ _ _ _ N) as (_ & f0 & _ & _ & U). pose proof (uhb_bounded _ _ _ _ U) as Hh'. destruct o as [f|].
      * destruct (consume s f) as [s' [y|]]; [injection H as _ _ <- _; exact Hh'|]. exact (IH _ _ _ _ _ _ _ Hh' H He).
      * exact (IH _ _ _ _ _ _ _ Hh' H He).
Qed.
End FBProofs.

Lemma firstn_firstn_min {A} n m (l : list A) : firstn n (firstn m l) = firstn (Nat.min n m) l.
Proof. apply firstn_firstn. Qed.

Lemma bytes_eqb_refl b : bytes_eqb b b = true.
Proof. apply bytes_eqb_eq. reflexivity. Qed.

Lemma adp_nil d : add_data_preface [] d = Some ([], d).
Proof. reflexivity. Qed.
Lemma adp_cons_nil x pre : add_data_preface (x :: pre) [] = Some (x :: pre, []).
Proof. reflexivity. Qed.
Lemma adp_cons_cons x pre y d : add_data_preface (x :: pre) (y :: d) = if x =? y then add_data_preface pre d else None.
Proof.
  unfold add_data_preface. cbn [length Nat.min firstn skipn bytes_eqb].
  destruct (x =? y); cbn [andb]; reflexivity.
Qed.

Lemma add_data_preface_app pre c1 c2 :
  add_data_preface pre (c1 ++ c2) =
  match add_data_preface pre c1 with
  | None => None
  | Some (pre', p1) => match add_data_preface pre' c2 with
                       | None => None
                       | Some (pre'', p2) => Some (pre'', p1 ++ p2)
                       end
  end.
Proof.
  revert c1. induction pre as [|x pre IH]; intros c1.
  - rewrite !adp_nil. reflexivity.
  - destruct c1 as [|y c1].
    + cbn [app]. rewrite adp_cons_nil. destruct (add_data_preface (x :: pre) c2) as [[a b]|]; reflexivity.
    + cbn [app]. rewrite !adp_cons_cons. destruct (x =? y); [apply IH|reflexivity].
Qed.

(* outbound: any sequence of data_to_send(amount) calls returns pieces that partition the buffer *)
Lemma data_to_send_partition a buf : let '(x, rest) := data_to_send a buf in x ++ rest = buf.
Proof.
  destruct a as [a|]; cbn [data_to_send]; [|apply app_nil_r].
  unfold py_slice_to, py_slice_from. destruct (0 <=? a); apply firstn_skipn.
Qed.

Theorem reads_partition amounts : forall buf, let '(xs, rest) := reads amounts buf in concat xs ++ rest = buf.
Proof.
  induction amounts as [|a r IH]; intros buf; cbn [reads]; [reflexivity|].
  pose proof (data_to_send_partition a buf) as P. destruct (data_to_send a buf) as [x buf'].
  specialize (IH buf'). destruct (reads r buf') as [xs rest]. cbn [concat]. rewrite <- app_assoc, IH. exact P.
Qed.
