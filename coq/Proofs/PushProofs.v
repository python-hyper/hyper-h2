From H2 Require Import Base.Prelude Model.Types.

Definition is_ok {A} (r : res A) : bool := match r with Ok _ => true | _ => false end.

Lemma bind_err {S A B} (m : M S A) (k : A -> M S B) s : is_ok (snd (m s)) = false -> is_ok (snd (bind m k s)) = false.
Proof. unfold bind. destruct (m s) as [s1 [a| |]]; cbn; intros H; [discriminate|reflexivity|reflexivity]. Qed.
