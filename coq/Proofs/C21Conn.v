(* receive_data at the level of frames: feeding the frames of a byte stream in several calls
   gives the same final state (hence the same emitted bytes), the same events in the same order, and the same
   error at the same frame as feeding them in one call.  Together with Proofs/C21Proofs.v (bytes -> frames is
   chunking-independent) this is property C21. *)
From H2 Require Import Base.Prelude Model.Types Model.ConnState Model.Connection Proofs.ConnPrims Proofs.Frame
  Proofs.FrameConn Proofs.Inv.

Definition prepend (acc : list event) (r : res (list event)) : res (list event) :=
  match r with Ok evs => Ok (acc ++ evs) | e => e end.
Definition with_acc (acc : list event) (x : conn * res (list event) * list (rframe * Z)) :=
  let '(c, r, rem) := x in (c, prepend acc r, rem).

Lemma with_acc_nil x : with_acc [] x = x.
Proof. destruct x as [[c r] rem]. destruct r; reflexivity. Qed.
Lemma with_acc_app a b x : with_acc a (with_acc b x) = with_acc (a ++ b) x.
Proof. destruct x as [[c r] rem]. destruct r; cbn; try reflexivity. rewrite app_assoc. reflexivity. Qed.

Lemma recv_core_acc fs : forall acc c, recv_core fs acc c = with_acc acc (recv_core fs [] c).
Proof.
  induction fs as [|fb rest IH]; intros acc c; [cbn; rewrite app_nil_r; reflexivity|].
  rewrite !recv_core_cons. destruct (recv_one fb c) as [[c1 [evs|e code sid rst|p]] keep]; try reflexivity.
  rewrite (IH (acc ++ evs)), (IH ([] ++ evs)), with_acc_app. reflexivity.
Qed.

Lemma recv_core_app l1 l2 : forall acc c,
  recv_core (l1 ++ l2) acc c =
  let '(c1, r1, rem) := recv_core l1 acc c in
  match r1 with Ok acc1 => recv_core l2 acc1 c1 | _ => (c1, r1, rem ++ l2) end.
Proof.
  induction l1 as [|fb rest IH]; intros acc c; [reflexivity|]. cbn [app].
  rewrite !recv_core_cons. destruct (recv_one fb c) as [[c1 [evs|e code sid rst|p]] [|]]; try reflexivity; apply IH.
Qed.

Lemma recv_core_ok_no_rest fs : forall acc c c' evs rem, recv_core fs acc c = (c', Ok evs, rem) -> rem = [].
Proof.
  induction fs as [|fb rest IH]; intros acc c c' evs rem; [intros H; injection H as _ _ <-; reflexivity|].
  rewrite recv_core_cons. destruct (recv_one fb c) as [[c1 [evs1|e code sid rst|p]] keep]; try discriminate. apply IH.
Qed.

Lemma recv_core_keeps_inbuf fs acc c c' r rem : recv_core fs acc c = (c', r, rem) -> c_inbuf c' = c_inbuf c.
Proof.
  intros H.
  assert (Ht : forall code, pres_inv (fun x => c_inbuf x = c_inbuf c) (terminate_connection code))
    by (intros code x x' r' <-; apply k_terminate_connection with (R := peq c_inbuf); unread).
  refine (proj1 (recv_core_inv (fun x => c_inbuf x = c_inbuf c) (fun _ => True) Ht (guard_of_frame _ _ Ht _) fs acc c c' r rem eq_refl _ H)).
  - intros f _ x x' r' <-. apply receive_frame_keeps_inbuf.
  - apply Forall_True.
Qed.

(* receive_data called once per chunk of frames; after an exception the remaining chunks are only buffered *)
Fixpoint receive_chunks (css : list (list (rframe * Z))) (c : conn) : conn * res (list event) :=
  match css with
  | [] => (c, Ok [])
  | fs :: rest =>
      let '(c1, r1) := api_receive fs c in
      match r1 with
      | Ok evs => let '(c2, r2) := receive_chunks rest c1 in (c2, prepend evs r2)
      | _ => (cset_inbuf c1 (c_inbuf c1 ++ concat rest), r1)
      end
  end.

Theorem receive_chunks_is_receive_once css : forall c,
  c_inbuf c = [] -> receive_chunks css c = api_receive (concat css) c.
Proof.
  induction css as [|fs rest IH]; intros c Hb; cbn [receive_chunks concat].
  - unfold api_receive. rewrite Hb. cbn. rewrite <- Hb. rewrite cset_inbuf_same. reflexivity.
  - unfold api_receive at 1 2. rewrite Hb. cbn [app]. rewrite recv_core_app.
    destruct (recv_core fs [] c) as [[c1 r1] rem] eqn:E.
    pose proof (recv_core_keeps_inbuf _ _ _ _ _ _ E) as Hk. rewrite Hb in Hk.
    destruct r1 as [evs|e code sid rst|p].
    + pose proof (recv_core_ok_no_rest _ _ _ _ _ _ E). subst rem.
      rewrite <- Hk, cset_inbuf_same. rewrite (IH c1 Hk). unfold api_receive. rewrite Hk. cbn [app].
      rewrite (recv_core_acc (concat rest) evs c1).
      destruct (recv_core (concat rest) [] c1) as [[c2 r2] rem2]. reflexivity.
    + destruct c1; reflexivity.
    + destruct c1; reflexivity.
Qed.

Corollary any_two_frame_chunkings css1 css2 c :
  c_inbuf c = [] -> concat css1 = concat css2 -> receive_chunks css1 c = receive_chunks css2 c.
Proof. intros Hb E. rewrite !receive_chunks_is_receive_once by exact Hb. rewrite E. reflexivity. Qed.
