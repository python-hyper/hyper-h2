(* what goes into the output buffer: header-block shape, fragment sizes, the frame of close_connection. *)
From H2 Require Import Base.Prelude Model.FsmTypes Model.Types Model.StreamFSM Model.Headers Model.Stream
  Model.ConnState Model.Connection Proofs.ConnPrims.

(* a header block on the wire: one HEADERS / PUSH_PROMISE frame followed by CONTINUATION frames on the same stream, END_HEADERS
   on the last frame only *)
Fixpoint conts_ok (sid : Z) (fs : list frame) : bool :=
  match fs with
  | [] => false
  | [FContinuation s eh _] => (s =? sid) && eh
  | FContinuation s eh _ :: r => (s =? sid) && negb eh && conts_ok sid r
  | _ => false
  end.
Definition block_ok (fs : list frame) : bool :=
  match fs with
  | [FHeaders _ _ eh _ _ _] | [FPushPromise _ _ eh _ _] => eh
  | FHeaders sid _ eh _ _ _ :: r | FPushPromise sid _ eh _ _ :: r => negb eh && conts_ok sid r
  | _ => false
  end.

Fixpoint conts (sid : Z) (l : list Z) : list frame :=
  match l with [] => [] | [x] => [FContinuation sid true x] | x :: r => FContinuation sid false x :: conts sid r end.
Lemma conts_two sid x y r : conts sid (x :: y :: r) = FContinuation sid false x :: conts sid (y :: r).
Proof. reflexivity. Qed.
Lemma conts_ok_conts sid : forall l x, conts_ok sid (conts sid (x :: l)) = true.
Proof.
  induction l as [|y l IH]; intros x; [cbn; rewrite Z.eqb_refl; reflexivity|].
  rewrite conts_two. transitivity (conts_ok sid (conts sid (y :: l))); [|apply IH].
  destruct l; [|rewrite conts_two]; cbn [conts conts_ok]; rewrite Z.eqb_refl; reflexivity.
Qed.

Lemma build_shape cfg f hs L first s consumed frames :
  build_headers_frames cfg f hs L first s = (consumed, Ok frames) ->
  outbound_pipeline cfg f hs = (consumed, PAll) /\
  exists c, frames = [first true consumed c] \/ exists c2 l, frames = first false consumed c :: conts (s_id s) (c2 :: l).
Proof.
  unfold build_headers_frames. destruct (outbound_pipeline cfg f hs) as [cons r]. destruct r; try (unfold perr; discriminate).
  destruct (header_blocks L (s_max_out_frame s)) as [|c [|c2 rest]]; intros H; injection H as <- <-; (split; [reflexivity|]).
  - exists 0. left. reflexivity.
  - exists c. left. reflexivity.
  - exists c. right. exists c2, rest. f_equal. clear. revert c2. induction rest as [|c3 rest IH]; intros c2; [reflexivity|]. rewrite conts_two. rewrite <- IH. reflexivity.
Qed.

Theorem block_is_contiguous cfg f hs L first s consumed frames :
  (forall eh h c r, block_ok (first eh h c :: r) = match r with [] => eh | _ => negb eh && conts_ok (s_id s) r end) ->
  build_headers_frames cfg f hs L first s = (consumed, Ok frames) -> block_ok frames = true.
Proof.
  intros Hf H. destruct (build_shape _ _ _ _ _ _ _ _ H) as (_ & c & [-> | (c2 & l & ->)]); rewrite Hf; [reflexivity|].
  pose proof (conts_ok_conts (s_id s) l c2) as G. destruct (conts (s_id s) (c2 :: l)); [discriminate | exact G].
Qed.

(* the fuel header_blocks gives, L / mx + 2, is enough *)
Lemma chunks_spec fuel : forall L mx, 0 < mx -> (Z.to_nat (L / mx) + 2 <= fuel)%nat ->
  Forall (fun c => 0 < c <= mx) (chunks fuel L mx) /\ fold_right Z.add 0 (chunks fuel L mx) = Z.max L 0.
Proof.
  induction fuel as [|fuel IH]; intros L mx Hmx Hf; [lia|]. cbn [chunks].
  destruct (L <=? 0) eqn:E0; [split; [constructor | cbn; lia]|].
  destruct (L <=? mx) eqn:E1; [split; [repeat constructor; lia | cbn; lia]|].
  assert (Hd : L / mx = (L - mx) / mx + 1).
  { replace L with ((L - mx) + 1 * mx) at 1 by lia. rewrite Z.div_add by lia. reflexivity. }
  assert (0 <= (L - mx) / mx) by (apply Z.div_pos; lia).
  destruct (IH (L - mx) mx Hmx) as [A B]; [rewrite Hd in Hf; rewrite Z2Nat.inj_add in Hf by lia; simpl in Hf; lia|].
  split; [constructor; [lia | exact A] | cbn [fold_right]; rewrite B; lia].
Qed.

(* close_connection: SEND_GOAWAY is accepted in every state of the connection, hence no hypothesis on it *)
Lemma close_connection_closed_form code last dbg c :
  api_close_connection code last dbg c =
  (cset_out (cset_state c C_CLOSED) (c_out c ++ [FGoAway (opt_default (c_hi_in c) last) code dbg]),
   if 8 + dbg <=? c_max_out_frame c then Ok tt else Crash AssertionError).
Proof.
  unfold api_close_connection. rewrite (bind_ok_eq _ _ _ _ _ (cfsm_goaway _ c (or_introl eq_refl))).
  rewrite bind_get, prepare_eq. cbn [forallb body_len]. rewrite andb_true_r. reflexivity.
Qed.
