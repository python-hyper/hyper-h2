(* Values of the constants dumped from the code, as equations for lia.  Never [unfold] these
   constants in hypotheses: with 2^31-sized literals the kernel's re-check at Qed takes minutes. *)
From H2 Require Import Base.Prelude Gen.Consts.
Lemma LARGEST_val : LARGEST_FLOW_CONTROL_WINDOW = 2147483647. Proof. reflexivity. Qed.
Lemma MWI_val : MAX_WINDOW_INCREMENT = 2147483647. Proof. reflexivity. Qed.
Lemma HIGHEST_ID_val : HIGHEST_ALLOWED_STREAM_ID = 2147483647. Proof. reflexivity. Qed.
Lemma FC_code_val : exn_code FlowControlError = 3. Proof. reflexivity. Qed.
