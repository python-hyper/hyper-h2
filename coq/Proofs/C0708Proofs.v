(* the HTTP message grammar as boolean predicates on a state of the stream state machine (Properties/C07.v
   and C08.v check them over the reachable states of Proofs/FsmReach.v); the H2Stream methods that receive HEADERS, DATA,
   PUSH_PROMISE and ALTSVC raise no Python exception, and the shape of the event lists they build. *)
From H2 Require Import Base.Prelude Model.FsmTypes Gen.Tables Model.Types Model.Windows Model.StreamFSM Model.Headers
  Model.Stream Proofs.FsmReach Proofs.Wp Proofs.C17Proofs.

Definition evs_of (m : sm) (i : sinput) : option (list sev) := match snd (process_input 7 m i) with Ok e => Some e | _ => None end.
Definition has_ev (e : sev) (m : sm) (i : sinput) : bool :=
  match evs_of m i with Some l => existsb (fun x => sev_code x =? sev_code e) l | None => false end.
Definition accepted (m : sm) (i : sinput) : bool := match evs_of m i with Some _ => true | None => false end.
Definition server_side (m : sm) := match sm_client m with Some false => true | _ => false end.
Definition client_side (m : sm) := match sm_client m with Some true => true | _ => false end.
Definition alli (P : sinput -> bool) := forallb P all_sinput.
Definition is_st (m : sm) (s : sstate) := sstate_eqb (sm_state m) s.

Definition c07_data_needs_headers (m : sm) := negb (has_ev SE_DataReceived m SI_RECV_DATA) || sm_hr m.
Definition c07_server_reports_requests_only (m : sm) :=
  negb (server_side m) || alli (fun i => negb (has_ev SE_ResponseReceived m i || has_ev SE_InformationalResponseReceived m i || has_ev SE_PushedStreamReceived m i)).
Definition c07_client_reports_no_requests (m : sm) := negb (client_side m) || alli (fun i => negb (has_ev SE_RequestReceived m i)).
Definition c07_nothing_after_end (m : sm) :=
  negb (is_st m S_HALF_CLOSED_REMOTE || is_st m S_CLOSED) ||
  negb (accepted m SI_RECV_HEADERS || accepted m SI_RECV_DATA || accepted m SI_RECV_INFORMATIONAL_HEADERS).
Definition c07_informational_before_final (m : sm) := negb (has_ev SE_InformationalResponseReceived m SI_RECV_INFORMATIONAL_HEADERS) || negb (sm_hr m).
Definition c07_one_final_response (m : sm) :=
  (negb (has_ev SE_ResponseReceived m SI_RECV_HEADERS) || negb (sm_hr m)) && (negb (has_ev SE_RequestReceived m SI_RECV_HEADERS) || negb (sm_hr m)).
Definition c07_trailers_after_headers_once (m : sm) := negb (has_ev SE_TrailersReceived m SI_RECV_HEADERS) || (sm_hr m && negb (sm_tr m)).
Definition c07_one_reset (m : sm) := negb (has_ev SE_StreamReset m SI_RECV_RST_STREAM) || negb (is_st m S_CLOSED).
Definition c07_no_stream_event_after_reset (m : sm) :=
  negb (is_st m S_CLOSED) || alli (fun i => match evs_of m i with Some (_ :: _) => false | _ => true end).

Definition c07_all (m : sm) := c07_data_needs_headers m && c07_server_reports_requests_only m && c07_client_reports_no_requests m &&
  c07_nothing_after_end m && c07_informational_before_final m && c07_one_final_response m && c07_trailers_after_headers_once m &&
  c07_one_reset m && c07_no_stream_event_after_reset m.

Definition c08_no_headers_after_trailers (m : sm) := negb (sm_hs m && sm_ts m) || negb (accepted m SI_SEND_HEADERS).
Definition c08_no_informational_after_final (m : sm) := negb (sm_hs m) || negb (accepted m SI_SEND_INFORMATIONAL_HEADERS).
Definition c08_second_block_is_trailers (m : sm) := negb (sm_hs m && accepted m SI_SEND_HEADERS) || has_ev SE_TrailersSent m SI_SEND_HEADERS.
Definition c08_client_stream_sends_no_response (m : sm) := negb (client_side m && negb (sm_hs m)) || negb (has_ev SE_ResponseSent m SI_SEND_HEADERS).
Definition c08_client_stream_cannot_push (m : sm) := negb (client_side m) || negb (accepted m SI_SEND_PUSH_PROMISE).
Definition c08_client_stream_cannot_altsvc (m : sm) := negb (client_side m) || negb (accepted m SI_SEND_ALTERNATIVE_SERVICE).
Definition c08_request_only_opens (m : sm) := negb (has_ev SE_RequestSent m SI_SEND_HEADERS) || is_st m S_IDLE.
Definition c08_nothing_after_end (m : sm) :=
  negb (is_st m S_HALF_CLOSED_LOCAL || is_st m S_CLOSED) ||
  negb (accepted m SI_SEND_HEADERS || accepted m SI_SEND_DATA || accepted m SI_SEND_END_STREAM || accepted m SI_SEND_INFORMATIONAL_HEADERS || accepted m SI_SEND_PUSH_PROMISE).

Definition c08_all (m : sm) := c08_no_headers_after_trailers m && c08_no_informational_after_final m && c08_second_block_is_trailers m &&
  c08_client_stream_sends_no_response m && c08_client_stream_cannot_push m && c08_client_stream_cannot_altsvc m && c08_request_only_opens m &&
  c08_nothing_after_end m.

(* refuted clauses (witnesses are reachable states): DATA / END_STREAM before the final headers are NOT refused on a stream the
   peer opened; the IDLE row of the connection table accepts SEND_ALTERNATIVE_SERVICE whatever the configured role
   (advertise_alternative_service checks the role itself since fix 4e7b916: C24_client_cannot_advertise) *)
Definition c08_data_needs_headers (m : sm) := negb (accepted m SI_SEND_DATA) || sm_hs m.
Definition c08_end_needs_headers (m : sm) := negb (accepted m SI_SEND_END_STREAM) || sm_hs m.
Lemma c08_data_before_headers_refuted :
  let m := run_inputs sm_new [SI_RECV_HEADERS] in
  sm_client m = Some false /\ sm_hs m = false /\ accepted m SI_SEND_DATA = true /\ accepted m SI_SEND_END_STREAM = true.
Proof. vm_compute. repeat split; reflexivity. Qed.
Lemma c08_idle_connection_altsvc_refuted : conn_transition C_IDLE CI_SEND_ALTERNATIVE_SERVICE = Some C_SERVER_OPEN.
Proof. reflexivity. Qed.

(* the event lists H2Stream builds for HEADERS / DATA: [Some 1] (an offset into the same list, Model/Types.v) is the related
   StreamEnded event, the next element; trailers always carry it, an informational response never *)
Definition ended_ok (evs : list event) : Prop :=
  match evs with
  | [ERequestReceived _ _ None _] | [EResponseReceived _ _ None _] | [EInformationalResponseReceived _ _ _] | [EDataReceived _ _ _ None] => True
  | [ERequestReceived sid _ (Some 1) _; EStreamEnded sid'] | [EResponseReceived sid _ (Some 1) _; EStreamEnded sid']
  | [ETrailersReceived sid _ (Some 1) _; EStreamEnded sid'] | [EDataReceived sid _ _ (Some 1); EStreamEnded sid'] => sid = sid'
  | _ => False
  end.

(* the only Python exception an effect raises is its assertion, which process_input turns into a ProtocolError *)
Lemma run_effect_crash sid e m : match snd (run_effect sid e m) with Crash p => p = AssertionError | _ => True end.
Proof.
  destruct e; cbn; repeat match goal with
                          | |- context [if ?b then _ else _] => destruct b
                          | |- context [match sm_cb m with _ => _ end] => destruct (sm_cb m) as [[| | |]|]
                          end; first [exact I | reflexivity].
Qed.
Lemma process_input_ncr sid m i p : snd (process_input sid m i) <> Crash p.
Proof.
  unfold process_input. destruct (stream_transition (sm_state m) i) as [[eff tgt]|]; [|discriminate].
  pose proof (run_effect_crash sid eff (set_state m tgt)) as C.
  destruct (run_effect sid eff (set_state m tgt)) as [m2 [evs|e c s b|q]]; try discriminate. cbn in C. subst q. discriminate.
Qed.

(* What the machine returns when it accepts a frame, in EVERY state of the stream object: the event lists the callers index are
   never empty and begin with an event hdr_event knows.  END_STREAM is the one input that can be accepted with no event (on a
   closed stream); it is only ever fed after HEADERS or DATA was accepted, which leaves the stream in one of the two states below. *)
Definition receiving (m : sm) : Prop := sm_state m = S_OPEN \/ sm_state m = S_HALF_CLOSED_LOCAL.
Lemma process_input_recv sid m i m' evs : process_input sid m i = (m', Ok evs) ->
  match i with
  | SI_RECV_HEADERS => receiving m' /\ (evs = [SE_RequestReceived] \/ evs = [SE_ResponseReceived] \/ evs = [SE_TrailersReceived])
  | SI_RECV_INFORMATIONAL_HEADERS => evs = [SE_InformationalResponseReceived]
  | SI_RECV_DATA => receiving m' /\ evs = [SE_DataReceived]
  | SI_RECV_END_STREAM => receiving m -> evs = [SE_StreamEnded]
  | SI_RECV_CONTINUATION => False
  | _ => True
  end.
Proof.
  destruct m as [st cl hs ts hr tr cb].
  destruct i; try exact (fun _ => I); destruct st; cbv;
    repeat match goal with
           | |- context [if ?b then _ else _] => destruct b
           | |- context [match ?b with Some _ => _ | None => _ end] => destruct b
           end;
    first [discriminate | intros H; injection H as <- <-; auto; intros [X|X]; discriminate].
Qed.

Lemma fsm_nc i s (Q : list sev -> stream -> Prop) :
  (forall m evs, process_input (s_id s) (s_sm s) i = (m, Ok evs) -> Q evs (set_sm s m)) -> nc (fsm i) Q s.
Proof.
  intros HQ. unfold nc, wp, fsm. pose proof (process_input_ncr (s_id s) (s_sm s) i) as N.
  destruct (process_input _ _ _) as [m [evs|e c j b|p]]; [exact (HQ _ _ eq_refl) | exact I | exact (N p eq_refl)].
Qed.
Lemma lift_wm_nc {A} (f : wm -> wm * res A) s (Q : A -> stream -> Prop) :
  (forall p, snd (f (s_in_wm s)) <> Crash p) -> (forall w a, Q a (set_in_wm s w)) -> nc (lift_wm f) Q s.
Proof. intros N HQ. unfold nc, wp, lift_wm. destruct (f (s_in_wm s)) as [w [a|e c i b|p]]; [apply HQ | exact I | exact (N p eq_refl)]. Qed.
Lemma track_nc len es s (Q : unit -> stream -> Prop) :
  Q tt (set_cl s (s_exp_cl s) (s_act_cl s + len)) -> nc (track_content_length len es) Q s.
Proof.
  intros HQ. unfold nc, wp, track_content_length. destruct (s_exp_cl s) as [e|]; [|exact HQ].
  destruct (e <? _); [exact I|]. destruct (es && _); [exact I | exact HQ].
Qed.
Lemma window_consumed_ncr n w p : snd (window_consumed w n) <> Crash p.
Proof. unfold window_consumed. cbn. destruct (_ <? 0); discriminate. Qed.
Lemma init_cl_ncr hs s p : snd (initialize_content_length hs s) <> Crash p.
Proof.
  unfold initialize_content_length, bind, get. destruct (match s_method s with Some m => bytes_eqb m b_HEAD | None => false end); [discriminate|].
  destruct (find_content_length (plain hs)); [|discriminate]. destruct (parse_int b); discriminate.
Qed.

(* [len], the payload, is counted against content-length; [fclen], padding included, goes to the window only *)
Theorem receive_data_nc len fclen es s :
  nc (receive_data len fclen es) (fun evs s' => ended_ok evs /\ s_act_cl s' = s_act_cl s + len) s.
Proof.
  unfold receive_data. apply wp_bind, fsm_nc. intros m evs Hp. apply process_input_recv in Hp as [Hr ->].
  apply wp_bind, lift_wm_nc; [apply window_consumed_ncr|]. intros w _.
  apply wp_bind, track_nc.
  destruct es; [|split; reflexivity].
  (* the window and content-length steps leave the state machine alone *)
  apply wp_bind, fsm_nc. intros m2 es2 Hp. apply process_input_recv in Hp. rewrite (Hp Hr). split; reflexivity.
Qed.

Theorem receive_headers_nc cfg hs es s : nc (receive_headers cfg hs es) (fun evs _ => ended_ok evs) s.
Proof.
  unfold receive_headers. generalize (is_informational_response (plain hs)) as info. intros info.
  apply wp_bind, fsm_nc. intros m evs Hp. apply process_input_recv in Hp.
  (* informational with END_STREAM is refused *)
  apply wp_bind. destruct (info && es) eqn:Eie; [exact I | apply wp_ret].
  (* the machine returned one event, of a kind [hdr_event] knows *)
  assert (He : exists e0, evs = [e0] /\ (es = true -> receiving m) /\
                 match e0 with
                 | SE_RequestReceived | SE_ResponseReceived | SE_TrailersReceived => info = false
                 | SE_InformationalResponseReceived => es = false
                 | _ => False
                 end).
  { destruct info; [subst evs; destruct es; [discriminate | eexists; repeat split; discriminate]|].
    destruct Hp as [Hr [-> | [-> | ->] ] ]; eexists; repeat split; auto. }
  destruct He as (e0 & -> & Hr & He0).
  (* with END_STREAM the machine is asked again, in a state that answers [SE_StreamEnded]: neither list that is indexed is empty *)
  apply wp_seq with (Q := fun es2 _ => (if es then es2 else [SE_StreamEnded]) = [SE_StreamEnded]).
  { destruct es; [|exact eq_refl]. apply fsm_nc. intros m2 es2 Hp2. apply process_input_recv in Hp2. exact (Hp2 (Hr eq_refl)). }
  intros es2 s2 ->. apply nc_then; [destruct info; [discriminate | apply init_cl_ncr]|]. intros _ s3.
  destruct e0; try contradiction; destruct es; try discriminate; cbn; try exact I;
    (apply wp_bind, wp_ret, wp_bind, wp_ret, nc_then; [apply process_received_headers_never_crashes|]; intros h s4;
     first [exact I | exact eq_refl]).
Qed.

Theorem receive_push_promise_in_band_nc cfg promised hs s :
  nc (receive_push_promise_in_band cfg promised hs)
     (fun evs _ => exists f h, evs = [EPushedStreamReceived promised (s_id s) h] /\ process_received_headers cfg f hs = Ok h) s.
Proof.
  unfold receive_push_promise_in_band. apply wp_bind, fsm_nc. intros m evs _. destruct evs as [|e0 rest]; [exact I|].
  apply wp_bind, wp_ret, wp_bind, wp_ret, wp_bind, nc_lift; [apply process_received_headers_never_crashes|].
  intros h E. eexists _, h. split; [reflexivity|exact E].
Qed.
Theorem receive_alt_svc_nc origin field s :
  nc (receive_alt_svc origin field) (fun evs s' => evs = [] \/ evs = [EAltSvcAvailable (s_authority s') field]) s.
Proof.
  unfold receive_alt_svc. destruct origin; [|left; reflexivity].
  apply wp_bind, fsm_nc. intros m evs _. destruct evs; [left|right]; reflexivity.
Qed.
