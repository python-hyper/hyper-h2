From H2 Require Import Base.Prelude Base.PyDict Gen.Consts Gen.Tables Gen.Guards Model.Types Model.Windows
  Model.StreamFSM Model.Stream Model.ConnState Model.Connection Proofs.ConstFacts Proofs.Wp Proofs.ConnPrims.

Definition in_windows (c : conn) : wm * list (Z * wm) :=
  (c_in_wm c, map (fun kv => (fst kv, s_in_wm (snd kv))) (c_streams c)).

(* WindowManager.window_opened checks the limit before it changes the window (fix 4c2151f) *)
Lemma window_opened_err_unchanged w n w' r : window_opened w n = (w', r) -> is_ok r = false -> w' = w.
Proof.
  unfold window_opened. destruct (wm_cur w + n >? LARGEST_FLOW_CONTROL_WINDOW); intros H Hr; injection H as <- <-;
    [reflexivity | discriminate].
Qed.
Lemma window_opened_ok w n w' : window_opened w n = (w', Ok tt) ->
  wm_cur w' = wm_cur w + n /\ wm_cur w + n <= 2147483647.
Proof.
  unfold window_opened. pose proof LARGEST_val as Lv.
  destruct (wm_cur w + n >? LARGEST_FLOW_CONTROL_WINDOW) eqn:E; intros H; [discriminate|].
  injection H as <-. cbn [wm_cur]. lia.
Qed.

Lemma increase_stream_wp inc s :
  wp (increase_flow_control_window inc) (fun fr _ => exists i, fr = [FWindowUpdate i inc])
     (fun s' => s_in_wm s' = s_in_wm s) (fun s' => s_in_wm s' = s_in_wm s) s.
Proof.
  unfold increase_flow_control_window. apply wp_bind. unfold wp at 1, fsm.
  destruct (process_input _ _ _) as [m [evs|e co i b|p]]; [|reflexivity|reflexivity].
  apply wp_bind. unfold wp at 1, lift_wm. cbn [s_in_wm set_sm].
  destruct (window_opened (s_in_wm s) inc) as [w [[]|e co i b|p]] eqn:Ew;
    [|rewrite (window_opened_err_unchanged _ _ _ _ Ew eq_refl); reflexivity ..].
  apply wp_bind, wp_get, wp_ret. eexists. reflexivity.
Qed.

Definition untouched (c c' : conn) : Prop := in_windows c' = in_windows c /\ c_out c' = c_out c.

(* every way the call can end, on the connection or on a stream: a call that raises (range, state machine, unknown stream,
   stream state, overflow of 2^31-1) leaves every window and the output as they were; the one frame of a call that does not
   raise always fits, so the assertion after the bytes are queued cannot fail *)
Lemma increment_window_wp inc sid c : 4 <= c_max_out_frame c ->
  wp (api_increment_window inc sid)
     (fun _ c' => sid = None ->
        wm_cur (c_in_wm c') = wm_cur (c_in_wm c) + inc /\ c_out c' = c_out c ++ [FWindowUpdate 0 inc]
        /\ 1 <= inc /\ wm_cur (c_in_wm c) + inc <= 2147483647)
     (untouched c) (untouched c) c.
Proof.
  intros Hm. unfold api_increment_window, g_inc_range.
  apply wp_bind. destruct ((1 <=? inc) && (inc <=? 2147483647)) eqn:Ei; [apply wp_ret | split; reflexivity].
  apply wp_bind. unfold wp at 1, cfsm. destruct (conn_transition _ _) as [t|]; [|split; reflexivity].
  destruct sid as [sid|]; apply wp_bind, wp_bind; unfold wp at 1.
  - destruct (dget sid (c_streams c)) as [s|] eqn:Hs.
    2:{ rewrite (get_stream_by_id_none sid (cset_state c t) Hs). unfold lookup_error. destruct (_ >? _); split; reflexivity. }
    rewrite (get_stream_by_id_some sid (cset_state c t) s Hs). unfold wp at 1. rewrite (with_stream_some _ _ (cset_state c t) s Hs).
    pose proof (increase_stream_wp inc s) as W. unfold wp in W.
    destruct (increase_flow_control_window inc s) as [s' [fr|e co i b|p]]; cbn [fst snd];
      [|split; [exact (f_equal (pair (c_in_wm c)) (map_dset_same _ sid s s' _ Hs (f_equal (pair sid) W))) | reflexivity] ..].
    destruct W as [i ->]. unfold wp. rewrite prepare_ok by (cbn; lia). discriminate.
  - rewrite lift_cwm_eq. cbn [c_in_wm cset_state].
    destruct (window_opened (c_in_wm c) inc) as [w [[]|e co i b|p]] eqn:Ew; cbn [fst snd];
      [|rewrite (window_opened_err_unchanged _ _ _ _ Ew eq_refl); split; reflexivity ..].
    apply wp_ret. unfold wp. rewrite prepare_ok by (cbn; lia). intros _.
    destruct (window_opened_ok _ _ _ Ew). cbn. repeat split; try assumption; lia.
Qed.
