(* Who may open a stream (fixes 12650a7 and 09dbf89): a server never opens a stream by sending HEADERS (that is in
   C29Proofs: server_send_headers_unknown), and a client never opens one by RECEIVING HEADERS: a HEADERS frame accepted
   by a client was for a stream already in its table (one it opened, or one the server promised).  That theorem is
   C07_a_client_accepts_headers_only_on_known_streams (Properties/C07.v); here are the lemma it shares with
   RoleInv.recv_headers_role and the relation its proof needs. *)
From H2 Require Import Base.Prelude Base.PyDict Gen.Guards Model.Types Model.StreamFSM Model.ConnState Model.Connection
  Proofs.ConnPrims.


(* fix 09dbf89 in one place: what a client does with HEADERS for an id that is not in its table, once the state machine has
   accepted the frame: nothing is created and nothing changes; the call raises ProtocolError (an even id above the
   watermark: the added check; an odd id: _begin_new_stream's parity check) or StreamIDTooLowError *)
Lemma client_refuses_unknown_headers {B} sid (k : unit -> CM B) c c' r :
  client c = true -> dget sid (c_streams c) = None ->
  ((if g_recv_headers_unpromised sid (c_hi_in c) (client c) (negb (dmem sid (c_streams c))) then lift_res perr else ret tt) ;;;
   bind (get_or_create_stream sid (b2z (negb (client c)))) k) c = (c', r) ->
  c' = c /\ exists co i b, r = Err ProtocolError co i b \/ r = Err StreamIDTooLowError co i b.
Proof.
  intros Hc Hn. unfold g_recv_headers_unpromised, get_or_create_stream, dmem. rewrite Hc, Hn. cbn [negb andb b2z].
  unfold bind at 1. destruct ((sid mod 2 =? 0) && (sid >? c_hi_in c)) eqn:Eg; [intros [= <- <-]; eauto 7|].
  unfold ret at 1, bind at 1, bind at 1, get at 1. rewrite Hn, begin_new_stream_eq. unfold highest_for, is_outbound. rewrite Hc. cbn [b2z].
  destruct (sid mod 2 =? 0) eqn:E0; cbn [andb] in Eg.
  - (* even, and the added check did not fire: at or below the watermark *)
    apply Z.eqb_eq in E0. rewrite E0. cbn [Z.eqb]. replace (sid <=? c_hi_in c) with true by lia. intros [= <- <-]; eauto 7.
  - destruct (sid <=? _); intros [= <- <-]; eauto 7.
Qed.
(* what the steps of recv_headers before the lookup keep: an R for the lemmas of FrameConn *)
Definition unk (sid : Z) (c c' : conn) : Prop :=
  client c' = client c /\ (dget sid (c_streams c) = None -> dget sid (c_streams c') = None).

Lemma unk_refl sid c : unk sid c c.
Proof. split; auto. Qed.
Lemma unk_trans sid a b c : unk sid a b -> unk sid b c -> unk sid a c.
Proof. intros [A1 A2] [B1 B2]. split; [congruence | auto]. Qed.
Lemma unk_reap sid c r : unk sid c (fst (open_streams r c)).
Proof. split; [reflexivity | apply dget_filter_none]. Qed.
