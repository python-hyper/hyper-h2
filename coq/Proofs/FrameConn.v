(* Frame conditions of the connection handlers: what each does to the state, said once.
   R is any preorder on connection states.  The hypotheses of the section are the ATOMIC WRITES of
   Model/Connection.v: each says that R relates a state to the state after one such write, with what is
   known at the place of the write as a premise.  Every handler is a composition of atomic writes, so
   [keeps R handler] follows by walking its text once.  Coq generalises each lemma over the hypotheses its
   proof used: after the section the statement of a lemma lists the writes that handler can perform.
   At R := peq P the lemmas say which handlers leave the projection P alone; at R := imp I, which keep the
   invariant I. *)
From H2 Require Import Base.Prelude Base.PyDict Model.FsmTypes Gen.Consts Gen.Tables Gen.Guards Model.Types
  Model.Windows Model.Settings Model.Stream Model.ConnState Model.Connection Proofs.ConnPrims Proofs.Frame.

(* the inputs after which the state is the same or CLOSED ([tr_neutral]): all but the three that lead out of IDLE; every
   [ConnPrims.housekeeping] input is among them *)
Definition neutral (i : cinput) : bool :=
  match i with CI_SEND_HEADERS | CI_RECV_HEADERS | CI_SEND_ALTERNATIVE_SERVICE => false | _ => true end.
Lemma tr_neutral s i t : neutral i = true -> conn_transition s i = Some t -> t = s \/ t = C_CLOSED.
Proof. destruct s, i; cbn; intros Hn H; try discriminate; injection H as <-; auto. Qed.

Lemma changed_lookup_In k ch o n : changed_lookup k ch = Some (o, n) -> In (k, o, n) ch.
Proof.
  unfold changed_lookup. destruct (find _ ch) as [[[k0 o0] n0]|] eqn:E; [|discriminate].
  apply find_some in E as [Hin Hk]. cbn in Hk. apply Z.eqb_eq in Hk. subst. intros H. injection H as <- <-. exact Hin.
Qed.

Lemma conn_window_update_writes inc c c' r : recv_window_update 0 inc c = (c', r) ->
  let c1 := cset_state c (next_state (c_state c) CI_RECV_WINDOW_UPDATE) in
  c' = c1 \/ c_out_win c + inc <= LARGEST_FLOW_CONTROL_WINDOW /\ c' = cset_out_win c1 (c_out_win c + inc).
Proof.
  unfold recv_window_update. unfold bind at 1. rewrite cfsm_eq.
  destruct (conn_transition _ _); [|intros H; injection H as <- _; left; reflexivity].
  cbn [Z.eqb negb]. unfold bind at 1, get at 1, bind at 1, lift_res at 1, guard_increment_window. cbn [c_out_win cset_state].
  destruct (c_out_win c + inc >? LARGEST_FLOW_CONTROL_WINDOW) eqn:E; intros H; injection H as <- _; [left; reflexivity|].
  right. split; [lia | reflexivity].
Qed.

Section Writes.
Variable R : conn -> conn -> Prop.
Variable wf : rframe -> Prop.      (* what the wire format guarantees about a received frame *)
Hypothesis R_refl : forall c, R c c.
Hypothesis R_trans : forall a b c, R a b -> R b c -> R a c.

Hypothesis W_state : forall c i, neutral i = true -> R c (cset_state c (next_state (c_state c) i)).
Hypothesis W_open : forall c i, neutral i = false -> R c (cset_state c (next_state (c_state c) i)).
Hypothesis W_out : forall c v, R c (cset_out c v).
Hypothesis W_reap : forall c r, R c (fst (open_streams r c)).
Hypothesis W_new_out : forall c sid s, c_hi_out c < sid -> R c (cset_hi_out (cset_streams c (dset sid s (c_streams c))) sid).
Hypothesis W_new_in : forall c sid s, c_hi_in c < sid -> R c (cset_hi_in (cset_streams c (dset sid s (c_streams c))) sid).
Hypothesis W_stream : forall c sid s s', dget sid (c_streams c) = Some s -> R c (cset_streams c (dset sid s' (c_streams c))).
Hypothesis W_streams : forall c ss, map fst ss = map fst (c_streams c) -> R c (cset_streams c ss).
Hypothesis W_local_update : forall c kvs, R c (cset_local c (fst (supdate kvs (c_local c)))).
Hypothesis W_local_ack : forall c, R c (cset_local c (fst (sacknowledge (c_local c)))).
Hypothesis W_remote_update : forall c kvs, R c (cset_remote c (fst (supdate kvs (c_remote c)))).
Hypothesis W_remote_ack : forall c, R c (cset_remote c (fst (sacknowledge (c_remote c)))).
Hypothesis W_in_wm : forall c v, R c (cset_in_wm c v).
Hypothesis W_enc_log : forall c v, R c (cset_enc_log c v).
Hypothesis W_dec_log : forall c v, R c (cset_dec_log c v).
Hypothesis W_enc_table_size : forall c v, R c (cset_enc_table_size c v).
Hypothesis W_dec_max_hls : forall c v, R c (cset_dec_max_hls c v).
Hypothesis W_max_in_frame : forall c v, R c (cset_max_in_frame c v).
(* the peer's frame size limit is only ever set to a value just taken from the peer's acknowledged settings *)
Hypothesis W_max_out_frame : forall c s0 old new g,
  c_remote c = fst (sacknowledge s0) -> In (SC_MAX_FRAME_SIZE, old, new) (snd (sacknowledge s0)) ->
  R c (cset_streams (cset_max_out_frame c new) (dmapv g (c_streams c))).
(* the connection window is lowered by send_data, by what fitted it, and raised by a WINDOW_UPDATE for stream 0 *)
Hypothesis W_out_win_sent : forall c n, n <= c_out_win c -> R c (cset_out_win c (c_out_win c - n)).
Hypothesis W_out_win_opened : forall c inc, wf (RWindowUpdate 0 inc) ->
  c_out_win c + inc <= LARGEST_FLOW_CONTROL_WINDOW -> R c (cset_out_win c (c_out_win c + inc)).

Notation keeps := (keeps R).

Ltac kstep := keeps_step R_refl R_trans.

(* the premise is W_state or W_open at the input *)
Lemma k_cfsm i : (forall c, R c (cset_state c (next_state (c_state c) i))) -> keeps (cfsm i).
Proof. intros W. apply keeps_fst. intros c. rewrite cfsm_eq. apply W. Qed.
Lemma k_prepare fs : keeps (prepare_for_sending fs).
Proof. apply keeps_fst. intros c. rewrite prepare_eq. apply W_out. Qed.
Lemma k_with_stream {A} sid (f : SM A) : keeps (with_stream sid f).
Proof.
  apply keeps_fst. intros c. rewrite with_stream_eq. destruct (dget sid (c_streams c)) eqn:E; [exact (W_stream _ _ _ _ E) | apply R_refl].
Qed.
Lemma k_for_streams f : keeps (for_streams f).
Proof. intros c c' r H. destruct (for_streams_spec _ _ _ _ H) as (ss & -> & E & _). exact (W_streams _ _ E). Qed.
Lemma k_open_streams r : keeps (open_streams r).
Proof. exact (keeps_fst R _ (fun c => W_reap c r)). Qed.

Lemma k_begin_new_stream sid allowed : keeps (begin_new_stream sid allowed).
Proof.
  apply keeps_fst. intros c. rewrite begin_new_stream_eq. destruct (sid <=? highest_for c sid) eqn:E; [apply R_refl|].
  destruct (sid mod 2 =? allowed); [|apply R_refl]. unfold opened, highest_for in *.
  apply Z.leb_gt in E. destruct (is_outbound c sid); [apply W_new_out | apply W_new_in]; exact E.
Qed.

Lemma k_open_outbound : keeps open_outbound_streams.
Proof. unfold open_outbound_streams. kstep; [kstep | apply k_open_streams]. Qed.
Lemma k_open_inbound : keeps open_inbound_streams.
Proof. unfold open_inbound_streams. kstep; [kstep | apply k_open_streams]. Qed.
Lemma k_get_or_create sid allowed : keeps (get_or_create_stream sid allowed).
Proof.
  unfold get_or_create_stream. kstep; [kstep|]. kstep; [kstep | apply k_begin_new_stream].
Qed.
Lemma k_get_stream_by_id sid : keeps (get_stream_by_id sid).
Proof. apply (keeps_pure R R_refl). intros c. rewrite get_stream_by_id_eq. reflexivity. Qed.
Lemma k_lift_cwm {A} (f : wm -> wm * res A) : keeps (lift_cwm f).
Proof. apply keeps_fst. intros c. rewrite lift_cwm_eq. apply W_in_wm. Qed.
Lemma k_local_update kvs : keeps (lift_local (supdate kvs)).
Proof. apply keeps_fst. intros c. rewrite lift_local_eq. apply W_local_update. Qed.
Lemma k_remote_update kvs : keeps (lift_remote (supdate kvs)).
Proof. apply keeps_fst. intros c. rewrite lift_remote_eq. apply W_remote_update. Qed.

Lemma k_local_ack : keeps (lift_local (fun s => let '(s', ch) := sacknowledge s in (s', Ok ch))).
Proof. apply keeps_fst. intros c. rewrite lift_local_eq, ack_lifted. apply W_local_ack. Qed.

Lemma k_remote_ack : keeps (lift_remote (fun s => let '(s', ch) := sacknowledge s in (s', Ok ch))).
Proof. apply keeps_fst. intros c. rewrite lift_remote_eq, ack_lifted. apply W_remote_ack. Qed.

Ltac write :=
  apply keeps_modify; intros ?; cbv beta;
  lazymatch goal with
  | |- R _ (cset_out _ _) => apply W_out
  | |- R _ (cset_enc_log _ _) => apply W_enc_log
  | |- R _ (cset_dec_log _ _) => apply W_dec_log
  | |- R _ (cset_enc_table_size _ _) => apply W_enc_table_size
  | |- R _ (cset_dec_max_hls _ _) => apply W_dec_max_hls
  | |- R _ (cset_max_in_frame _ _) => apply W_max_in_frame
  end.
(* [lazymatch] commits to the first pattern that matches.  [cfsm (if ..)] comes first: [neutral] of an input that is an [if]
   does not compute.  [lift_local (supdate _)] comes before [lift_local _], which is taken for the acknowledgement. *)
Ltac prim :=
  lazymatch goal with
  | |- keeps (cfsm (if ?b then _ else _)) => destruct b
  | |- keeps (cfsm _) => apply k_cfsm; intros; first [apply W_state; reflexivity | apply W_open; reflexivity]
  | |- keeps (prepare_for_sending _) => apply k_prepare
  | |- keeps (with_stream _ _) => apply k_with_stream
  | |- keeps (for_streams _) => apply k_for_streams
  | |- keeps (open_streams _) => apply k_open_streams
  | |- keeps open_outbound_streams => apply k_open_outbound
  | |- keeps open_inbound_streams => apply k_open_inbound
  | |- keeps (begin_new_stream _ _) => apply k_begin_new_stream
  | |- keeps (get_or_create_stream _ _) => apply k_get_or_create
  | |- keeps (get_stream_by_id _) => apply k_get_stream_by_id
  | |- keeps (lift_cwm _) => apply k_lift_cwm
  | |- keeps (lift_local (supdate _)) => apply k_local_update
  | |- keeps (lift_remote (supdate _)) => apply k_remote_update
  | |- keeps (lift_local _) => apply k_local_ack
  | |- keeps (lift_remote _) => apply k_remote_ack
  | |- keeps (modify _) => write
  end.
Ltac go := repeat first [kstep | prim].

Lemma k_log_enc e : keeps (log_enc e).
Proof. unfold log_enc. go. Qed.

Lemma k_initiate_connection : keeps initiate_connection.
Proof. unfold initiate_connection. go. Qed.
Lemma k_api_send_headers sid hs L es pw pd pe : keeps (api_send_headers sid hs L es pw pd pe).
Proof. unfold api_send_headers. go; apply k_log_enc. Qed.
Lemma k_local_flow_control_window sid : keeps (local_flow_control_window sid).
Proof. unfold local_flow_control_window. go. Qed.
Lemma k_remote_flow_control_window sid : keeps (remote_flow_control_window sid).
Proof. unfold remote_flow_control_window. go. Qed.

(* send_data: the checks leave the state alone; the steps between them and the write to the window leave the window alone;
   the window is lowered by what was checked against it *)
Lemma send_data_writes sid len es pad c c' r : api_send_data sid len es pad c = (c', r) ->
  let n := len + match pad with Some p => p + 1 | None => 0 end in
  exists c1, R c c1 /\ c_out_win c1 = c_out_win c /\
    (c' = c1 /\ is_ok r = false \/
     c' = cset_out_win c1 (c_out_win c - n) /\
     exists s, dget sid (c_streams c) = Some s /\ n <= c_out_win c /\ n <= s_out_win s /\ n <= c_max_out_frame c).
Proof.
  intros H n. unfold api_send_data in H. fold n in H.
  (* an exit before the window is written *)
  match goal with |- ?G =>
    assert (Stop : forall c1 (x : res unit), R c c1 -> c_out_win c1 = c_out_win c -> (c1, x) = (c', r) -> is_ok x = false -> G)
    by (intros c1 x K E X Hx; injection X as <- <-; exists c1; auto) end.
  unfold bind at 1 in H. destruct (g_send_data_pad _ _); [exact (Stop _ _ (R_refl c) eq_refl H eq_refl)|]. unfold ret at 1, bind at 1 in H.
  rewrite lfcw_eq in H. destruct (dget sid (c_streams c)) as [s|] eqn:Es;
    [|unfold lookup_error in H; destruct (_ >? _) in H; exact (Stop _ _ (R_refl c) eq_refl H eq_refl)].
  unfold bind at 1, get at 1, bind at 1 in H. unfold g_send_data_flow, g_send_data_frame in H.
  destruct (n >? _) eqn:Ef in H; [exact (Stop _ _ (R_refl c) eq_refl H eq_refl)|]. cbn [negb andb] in H.
  destruct (n >? c_max_out_frame c) eqn:Em; [exact (Stop _ _ (R_refl c) eq_refl H eq_refl)|]. unfold ret at 1, bind at 1 in H.
  rewrite cfsm_eq in H. pose proof (W_state c CI_SEND_DATA eq_refl) as K. set (c2 := cset_state c _) in *.
  destruct (conn_transition _ _); [|exact (Stop _ _ K eq_refl H eq_refl)]. unfold bind at 1 in H.
  rewrite (with_stream_some _ _ c2 s Es) in H. pose proof (R_trans _ _ _ K (W_stream c2 _ _ (fst (send_data len es pad s)) Es)) as K3.
  set (c3 := cset_streams c2 _) in *. destruct (snd _) as [frames|e co i b|p]; try exact (Stop _ _ K3 eq_refl H eq_refl).
  unfold bind at 1 in H. rewrite prepare_eq in H. pose proof (R_trans _ _ _ K3 (W_out c3 (c_out c3 ++ frames))) as K4.
  destruct (forallb _ _); [|exact (Stop _ _ K4 eq_refl H eq_refl)].
  unfold bind at 1, modify at 1, bind at 1, get at 1 in H. exists (cset_out c3 (c_out c3 ++ frames)). split; [exact K4 | split; [reflexivity | right]].
  split; [|exists s; split; [reflexivity | lia]]. cbn [c_out_win cset_out] in H. destruct (_ <? 0) in H; injection H as <- _; reflexivity.
Qed.

Lemma k_api_send_data sid len es pad : keeps (api_send_data sid len es pad).
Proof.
  intros c c' r H. destruct (send_data_writes _ _ _ _ _ _ _ H) as (c1 & K & E & [[-> _] | [-> (s & _ & Hn & _)]]); [exact K|].
  apply (R_trans _ _ _ K). rewrite <- E. apply W_out_win_sent. rewrite E. exact Hn.
Qed.

Lemma k_api_end_stream sid : keeps (api_end_stream sid).
Proof. unfold api_end_stream. go. Qed.
Lemma k_api_increment_window inc sid : keeps (api_increment_window inc sid).
Proof. unfold api_increment_window. go. Qed.
Lemma k_api_push_stream sid pr hs L : keeps (api_push_stream sid pr hs L).
Proof. unfold api_push_stream. go; apply k_log_enc. Qed.
Lemma k_api_ping pl : keeps (api_ping pl).
Proof. unfold api_ping. go. Qed.
Lemma k_api_reset_stream sid code : keeps (api_reset_stream sid code).
Proof. unfold api_reset_stream. go. Qed.
Lemma k_api_close_connection code last dbg : keeps (api_close_connection code last dbg).
Proof. unfold api_close_connection. go. Qed.
Lemma k_api_update_settings kvs : keeps (api_update_settings kvs).
Proof. unfold api_update_settings. go. Qed.
Lemma k_api_advertise_alt_svc f o s : keeps (api_advertise_alt_svc f o s).
Proof. unfold api_advertise_alt_svc. go. Qed.
Lemma k_api_prioritize sid w d e : keeps (api_prioritize sid w d e).
Proof. unfold api_prioritize. go. Qed.
Lemma k_api_acknowledge n sid : keeps (api_acknowledge_received_data n sid).
Proof. unfold api_acknowledge_received_data. go. Qed.
Lemma k_api_next_stream_id : keeps api_next_stream_id.
Proof. unfold api_next_stream_id. go. Qed.

Lemma k_flow_control_change o n : keeps (flow_control_change_from_settings o n).
Proof. unfold flow_control_change_from_settings. go. Qed.

(* the new frame size limit is one of the changes the acknowledgement has just produced, and the writes after the
   acknowledgement leave the settings alone: they keep [R'], which is R together with that knowledge *)
Lemma k_acknowledge_settings : keeps acknowledge_settings.
Proof.
  unfold acknowledge_settings. apply (keeps_bind R R_trans); [go | intros _].
  intros c c' r H. unfold bind at 1 in H. rewrite lift_remote_eq, ack_lifted in H. cbn [fst snd] in H.
  apply (R_trans _ _ _ (W_remote_ack c)). set (ch := snd (sacknowledge (c_remote c))) in *.
  pose (R' := fun a b => c_remote a = fst (sacknowledge (c_remote c)) -> R a b /\ c_remote b = fst (sacknowledge (c_remote c))).
  assert (F : forall a, R' a a) by (intros a E; split; [apply R_refl | exact E]).
  assert (T : forall a b d, R' a b -> R' b d -> R' a d).
  { intros a b d H1 H2 E. destruct (H1 E) as [K1 E1]. destruct (H2 E1) as [K2 E2]. split; [exact (R_trans _ _ _ K1 K2) | exact E2]. }
  refine (proj1 ((_ : Frame.keeps R' _) _ _ _ H eq_refl)). repeat (apply (keeps_bind R' T); [|intros _]).
  - destruct (changed_lookup SC_INITIAL_WINDOW_SIZE ch) as [[o n]|]; [|apply (keeps_pure R' F); reflexivity].
    intros a b x E Ea. split; [exact (k_flow_control_change _ _ _ _ _ E) | destruct (for_streams_spec _ _ _ _ E) as (ss & -> & _); exact Ea].
  - destruct (changed_lookup SC_HEADER_TABLE_SIZE ch) as [[o n]|]; [|apply (keeps_pure R' F); reflexivity].
    apply keeps_modify. intros a Ea. split; [apply W_enc_table_size | exact Ea].
  - destruct (changed_lookup SC_MAX_FRAME_SIZE ch) as [[o n]|] eqn:El; [|apply (keeps_pure R' F); reflexivity].
    apply keeps_modify. intros a Ea. split; [|exact Ea]. exact (W_max_out_frame a _ o n _ Ea (changed_lookup_In _ _ _ _ El)).
  - apply (keeps_pure R' F). reflexivity.
Qed.

Lemma k_local_settings_acked : keeps local_settings_acked.
Proof. unfold local_settings_acked. go. Qed.
Lemma k_decode_headers d : keeps (decode_headers d).
Proof. unfold decode_headers. go. Qed.
Lemma k_recv_priority sid p : keeps (recv_priority sid p).
Proof. unfold recv_priority. go. Qed.
Lemma k_recv_headers sid es p d : keeps (recv_headers sid es p d).
Proof. unfold recv_headers. go; first [apply k_decode_headers | apply k_recv_priority]. Qed.

(* what recv_push_promise does once it has found the parent stream *)
Lemma k_push_promise_tail cfg sid pr hs :
  keeps (fun c' => let '(c2, r) := with_stream sid (receive_push_promise_in_band cfg pr hs) c' in
                   match r with
                   | Err StreamClosedError _ _ _ => (c2, Ok ([FRstStream pr EC_REFUSED_STREAM], []))
                   | Err e co i b => (c2, Err e co i b)
                   | Crash q => (c2, Crash q)
                   | Ok evs => (begin_new_stream pr 0 ;;; with_stream pr (remotely_pushed hs) ;;; ret ([], evs)) c2
                   end).
Proof.
  apply (keeps_then R R_trans); [apply k_with_stream|]. intros c r.
  destruct r as [evs|e co i b|q]; [apply keeps_at; go | destruct e; apply R_refl | apply R_refl].
Qed.

Lemma k_recv_push_promise sid pr d : keeps (recv_push_promise sid pr d).
Proof.
  unfold recv_push_promise. go; first [apply k_decode_headers | apply k_push_promise_tail].
Qed.

Lemma k_recv_data sid len fclen es : keeps (recv_data sid len fclen es).
Proof.
  unfold recv_data. go. apply (keeps_then R R_trans); [go|]. intros c r.
  destruct r as [evs|e co i b|q]; try apply R_refl. destruct e; try apply R_refl.
  destruct (process_bytes (c_in_wm c) fclen). apply W_in_wm.
Qed.

Lemma k_recv_settings ack vals : keeps (recv_settings ack vals).
Proof. unfold recv_settings. go; first [apply k_local_settings_acked | apply k_acknowledge_settings]. Qed.

Lemma k_recv_window_update sid inc : wf (RWindowUpdate sid inc) -> keeps (recv_window_update sid inc).
Proof.
  intros Hwf. destruct (sid =? 0) eqn:Es.
  - apply Z.eqb_eq in Es. subst sid. intros c c' r H. pose proof (W_state c CI_RECV_WINDOW_UPDATE eq_refl) as K.
    destruct (conn_window_update_writes _ _ _ _ H) as [-> | [Hn ->]]; [exact K|].
    apply (R_trans _ _ _ K). exact (W_out_win_opened (cset_state c _) inc Hwf Hn).
  - unfold recv_window_update. rewrite Es. cbn [negb]. go. apply (keeps_then R R_trans); [go|]. intros c r.
    destruct r as [x|e co i b|q]; try apply R_refl. destruct e; apply R_refl.
Qed.

Lemma k_recv_ping ack pl : keeps (recv_ping ack pl).
Proof. unfold recv_ping. go. Qed.
Lemma k_recv_rst_stream sid code : keeps (recv_rst_stream sid code).
Proof. unfold recv_rst_stream. go. Qed.
Lemma k_recv_goaway l co d : keeps (recv_goaway l co d).
Proof. unfold recv_goaway. go. Qed.
Lemma k_recv_naked_continuation sid : keeps (recv_naked_continuation sid).
Proof. unfold recv_naked_continuation. go. Qed.
Lemma k_recv_alt_svc sid o f : keeps (recv_alt_svc sid o f).
Proof. unfold recv_alt_svc. go. Qed.

(* the frames and the operations that feed only neutral inputs to the connection state machine and create no stream *)
Definition plain_frame (f : rframe) : bool := match f with RHeaders _ _ _ _ | RPushPromise _ _ _ => false | _ => true end.
Definition plain_op (o : op) : bool :=
  match o with
  | OInitiateUpgrade _ | OSendHeaders _ _ _ _ _ _ _ | OPushStream _ _ _ _ | OAdvertiseAltSvc _ _ _ | OReceive _ => false
  | _ => true
  end.

Lemma k_dispatch_plain f : wf f -> plain_frame f = true -> keeps (dispatch f).
Proof.
  intros Hwf Hp. destruct f; try discriminate Hp; cbn [dispatch]; go;
    first [ apply k_recv_data | apply k_recv_settings | apply k_recv_window_update; exact Hwf | apply k_recv_ping | apply k_recv_rst_stream
          | apply k_recv_goaway | apply k_recv_naked_continuation | apply k_recv_alt_svc | apply k_recv_priority ].
Qed.
Lemma k_dispatch f : wf f -> keeps (dispatch f).
Proof.
  intros Hwf. destruct (plain_frame f) eqn:E; [exact (k_dispatch_plain f Hwf E)|].
  destruct f; try discriminate E; [apply k_recv_headers | apply k_recv_push_promise].
Qed.

(* after the handler, _receive_frame only appends to the output *)
Lemma after_dispatch f c c0 r0 c1 r : dispatch f c = (c0, r0) -> receive_frame f c = (c1, r) -> R c0 c1.
Proof.
  intros Ed H. destruct (receive_frame_tail _ _ _ _ _ _ Ed H) as [(fs & evs & E & _) | [-> _]]; [|apply R_refl].
  assert (P : keeps (prepare_for_sending fs ;;; ret evs)) by go. exact (P _ _ _ E).
Qed.
Lemma k_receive_frame f : wf f -> keeps (receive_frame f).
Proof.
  intros Hwf c c1 r H. destruct (dispatch f c) as [c0 r0] eqn:Ed.
  exact (R_trans _ _ _ (k_dispatch f Hwf _ _ _ Ed) (after_dispatch f _ _ _ _ _ Ed H)).
Qed.

Lemma k_terminate_connection code : keeps (terminate_connection code).
Proof. unfold terminate_connection. go. Qed.

Lemma k_api_initiate_upgrade hdr : keeps (api_initiate_upgrade hdr).
Proof. unfold api_initiate_upgrade. go; first [apply k_initiate_connection | apply k_recv_settings]. Qed.

Lemma k_plain_op o : plain_op o = true -> keeps (fun c => step c o).
Proof.
  destruct o; intros Hp; try discriminate Hp; cbn [step];
    lazymatch goal with |- keeps (fun c => ?m c) => change (keeps m); unfold as_none, as_z | _ => idtac end; go;
    first [ apply k_initiate_connection | apply k_api_send_data | apply k_api_end_stream | apply k_api_increment_window | apply k_api_ping
          | apply k_api_reset_stream | apply k_api_close_connection | apply k_api_update_settings | apply k_api_prioritize
          | apply k_api_acknowledge | apply k_api_next_stream_id | apply k_local_flow_control_window | apply k_remote_flow_control_window
          | idtac ].
  (* what is left is ODrain: data_to_send empties the output buffer *)
  intros c c' r H. injection H as <- _. apply W_out.
Qed.
Lemma k_op o : match o with OReceive _ => False | _ => True end -> keeps (fun c => step c o).
Proof.
  intros Hr. destruct (plain_op o) eqn:E; [exact (k_plain_op o E)|].
  destruct o; try discriminate E; try contradiction; cbn [step];
    lazymatch goal with |- keeps (fun c => ?m c) => change (keeps m); unfold as_none end; go;
    first [ apply k_api_initiate_upgrade | apply k_api_send_headers | apply k_api_push_stream | apply k_api_advertise_alt_svc ].
Qed.

End Writes.

(* the premises of a lemma above at R := peq P, for a projection P of fields its handler does not write *)
Ltac unread := intros; first [reflexivity | exact Logic.I | eapply peq_trans; eassumption].
