(* the set of states a stream state machine object can reach from a fresh one under ANY sequence of
   inputs (accepted or refused), computed as a closure inside Coq and proved closed: an invariant by computation.
   Also the lemmas through which every sweep over the state machine becomes a universally quantified statement:
   [sm_forall] over all 1680 states, [sinput_forall] over the inputs, [reach_forall] over the reachable states. *)
From H2 Require Import Base.Prelude Model.FsmTypes Model.StreamFSM.

Lemma all_sm_complete m : In m all_sm.
Proof.
  destruct m as [s c hs ts hr tr cb]. unfold all_sm.
  apply in_flat_map. exists s. split; [apply all_sstate_complete|].
  apply in_flat_map. exists c. split; [destruct c as [[|]|]; cbn; tauto|].
  apply in_flat_map. exists hs. split; [destruct hs; cbn; tauto|].
  apply in_flat_map. exists ts. split; [destruct ts; cbn; tauto|].
  apply in_flat_map. exists hr. split; [destruct hr; cbn; tauto|].
  apply in_flat_map. exists tr. split; [destruct tr; cbn; tauto|].
  apply in_map. destruct cb as [[| | |]|]; cbn; tauto.
Qed.
Lemma sm_forall (P : sm -> bool) : forallb P all_sm = true -> forall m, P m = true.
Proof. exact (forallb_all _ _ all_sm_complete). Qed.
Lemma sinput_forall (P : sinput -> bool) : forallb P all_sinput = true -> forall i, P i = true.
Proof. exact (forallb_all _ _ all_sinput_complete). Qed.

Definition optb_eqb (a b : option bool) : bool := optb_code a =? optb_code b.
Definition sm_eqb (a b : sm) : bool :=
  sstate_eqb (sm_state a) (sm_state b) && optb_eqb (sm_client a) (sm_client b) && Bool.eqb (sm_hs a) (sm_hs b) &&
  Bool.eqb (sm_ts a) (sm_ts b) && Bool.eqb (sm_hr a) (sm_hr b) && Bool.eqb (sm_tr a) (sm_tr b) && (cb_code (sm_cb a) =? cb_code (sm_cb b)).

Lemma sm_eqb_eq a b : sm_eqb a b = true -> a = b.
Proof.
  destruct a as [s c hs ts hr tr cb], b as [s' c' hs' ts' hr' tr' cb']. unfold sm_eqb. cbn [sm_state sm_client sm_hs sm_ts sm_hr sm_tr sm_cb].
  intros H. repeat (apply andb_true_iff in H; destruct H as [H ?]).
  apply sstate_eqb_eq in H. subst s'.
  assert (c = c') by (destruct c as [[|]|], c' as [[|]|]; cbn in *; try reflexivity; discriminate).
  assert (cb = cb') by (destruct cb as [[| | |]|], cb' as [[| | |]|]; cbn in *; try reflexivity; discriminate).
  repeat match goal with X : Bool.eqb _ _ = true |- _ => apply Bool.eqb_prop in X end. subst. reflexivity.
Qed.

Definition mem (m : sm) (l : list sm) : bool := existsb (sm_eqb m) l.
Lemma mem_In m l : mem m l = true -> In m l.
Proof. unfold mem. intros H. apply existsb_exists in H as (x & Hx & He). apply sm_eqb_eq in He. subst. exact Hx. Qed.

(* the stream id, 7 here and in every sweep, is immaterial: it only ends up in the [sid] field of a StreamClosedError
   (C0708Proofs.process_input_recv, what an accepted receive input returns, is stated for every id) *)
Definition succs (m : sm) : list sm := map (fun i => fst (process_input 7 m i)) all_sinput.
Definition add_new (acc : list sm) (ms : list sm) : list sm :=
  fold_left (fun a m => if mem m a then a else a ++ [m]) ms acc.
Fixpoint closure (n : nat) (r : list sm) : list sm :=
  match n with O => r | S k => closure k (add_new r (flat_map succs r)) end.

Definition reach : list sm := Eval vm_compute in closure 12 [sm_new].

Lemma reach_start : mem sm_new reach = true.
Proof. vm_compute. reflexivity. Qed.

Lemma reach_closed : forallb (fun m => forallb (fun i => mem (fst (process_input 7 m i)) reach) all_sinput) reach = true.
Proof. vm_compute. reflexivity. Qed.

Definition run_inputs (m : sm) (is : list sinput) : sm := fold_left (fun m i => fst (process_input 7 m i)) is m.

Theorem reach_invariant is : forall m, In m reach -> In (run_inputs m is) reach.
Proof.
  induction is as [|i r IH]; intros m Hm; cbn [run_inputs fold_left]; [exact Hm|].
  apply IH, mem_In. exact (sinput_forall _ (proj1 (forallb_forall _ _) reach_closed m Hm) i).
Qed.
Corollary reachable_from_new is : In (run_inputs sm_new is) reach.
Proof. apply reach_invariant. apply mem_In. exact reach_start. Qed.

Lemma reach_forall (P : sm -> bool) : forallb P reach = true -> forall is, P (run_inputs sm_new is) = true.
Proof. intros H is. rewrite forallb_forall in H. apply H. apply reachable_from_new. Qed.
