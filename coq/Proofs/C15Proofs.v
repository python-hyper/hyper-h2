(* h2's one-pass, stateful header validation (Model/Headers.v: the generator chain of
   utilities.validate_headers) accepts EXACTLY the header lists that satisfy the whole-list RFC 7540 8.1.2 predicate of
   Spec/Rfc812.v.  The idea, once for both directions (the outbound theorem is in Properties/C14.v): the validator's state after a
   prefix is a function [abs] of that prefix; the whole-list predicate [placed] grows by one condition per field, and that condition
   is what one step checks on [abs].  The outbound step checks the meaning of a field ([step_common_sem]), the inbound step its
   spelling first ([step_inbound_spelled]); [field_ok] is the two together (C14Proofs.field_ok_split). *)
From H2 Require Import Base.Prelude Model.Types Gen.Consts Model.StreamFSM Model.Headers Model.Stream Spec.Rfc812
  Proofs.C14Proofs.

Definition blk (f : hflags) : block := if hf_trailer f then Trailers else if hf_response f then Response else Request.

(* a one-pass validator decides a predicate W on whole lists, if W grows by a condition c that a step tests on the
   state st of the prefix (D: the stateless decoding stage after it) *)
Section OnePass.
  Variables (step : vstate -> bytes -> bytes -> vres) (st : list hitem -> vstate)
            (W : list hitem -> bool) (c : list hitem -> hitem -> bool) (D : hitem -> bool).
  Hypothesis W_snoc : forall p h, W (p ++ [h]) = W p && c p h.
  Hypothesis step_st : forall p n v ni, step (st p) n v =
    if c p (n, v, ni) then if D (n, v, ni) then VOk (st (p ++ [(n, v, ni)])) else VUnicodeError else VProtocolError.

  Lemma W_prefix q : forall p, W (p ++ q) = true -> W p = true.
  Proof.
    induction q as [|h q IH]; intros p H; [rewrite app_nil_r in H; exact H|].
    change (h :: q) with ([h] ++ q) in H. rewrite app_assoc in H. apply IH in H. rewrite W_snoc in H. apply andb_true_iff in H. apply H.
  Qed.

  Lemma one_pass q : forall p passed, W p = true ->
    let '(out, r, s) := run_steps step (st p) q passed in
    if W (p ++ q) && forallb D q then r = PAll /\ out = rev passed ++ q /\ s = st (p ++ q)
    else (r = PProtocolError \/ r = PUnicodeError /\ forallb D q = false) /\
         exists done rest, q = done ++ rest /\ out = rev passed ++ done /\ rest <> [].
  Proof.
    assert (Stop : forall h (t passed : list hitem), exists done rest, h :: t = done ++ rest /\ rev passed = rev passed ++ done /\ rest <> []).
    { intros h t passed. exists [], (h :: t). rewrite app_nil_r. repeat split. discriminate. }
    induction q as [|h q IH]; intros p passed Hp.
    - cbn. rewrite !app_nil_r, Hp. cbn. auto.
    - pose proof (W_snoc p h) as Hs. rewrite Hp in Hs. pose proof (W_prefix q (p ++ [h])) as Hq.
      specialize (IH (p ++ [h]) (h :: passed)). cbn [rev] in IH. rewrite <- !app_assoc in IH. rewrite <- app_assoc in Hq. cbn [app] in IH, Hq.
      destruct h as [[n v] ni]. cbn [run_steps forallb]. rewrite (step_st p n v ni). destruct (c p (n, v, ni)).
      + destruct (D (n, v, ni)); [|rewrite andb_false_r; auto].
        specialize (IH Hs). cbn [andb]. destruct (run_steps _ _ q _) as [[out r] s]. destruct (W _ && forallb D q); [exact IH|].
        destruct IH as (Hr & done & rest & -> & -> & Hne). split; [exact Hr|]. exists ((n, v, ni) :: done), rest. rewrite <- app_assoc. auto.
      + destruct (W (p ++ _ :: q)); [rewrite Hq in Hs by reflexivity; discriminate | cbn; auto].
  Qed.
End OnePass.

Lemma is_in_app x a b : is_in x (a ++ b) = is_in x a || is_in x b.
Proof. apply existsb_app. Qed.
Lemma bytes_eqb_refl' a : bytes_eqb a a = true.
Proof. apply bytes_eqb_eq. reflexivity. Qed.
Lemma bytes_eqb_sym a b : bytes_eqb a b = bytes_eqb b a.
Proof. apply eq_true_iff_eq. rewrite !bytes_eqb_eq. split; intros ->; reflexivity. Qed.

Lemma names_app a b : names (a ++ b) = names a ++ names b.
Proof. apply map_app. Qed.
Lemma pseudo_names_app a b : pseudo_names (a ++ b) = pseudo_names a ++ pseudo_names b.
Proof. unfold pseudo_names. rewrite names_app. apply filter_app. Qed.

Lemma value_of_snoc n p n' v ni : value_of n (p ++ [(n', v, ni)]) = if bytes_eqb n' n then Some v else value_of n p.
Proof.
  induction p as [|[[a b] c] p IH]; cbn [app value_of]; [|rewrite IH]; destruct (bytes_eqb n' n); reflexivity.
Qed.

Lemma none_in_cons x a b :
  forallb (fun y => negb (is_in y (x :: a))) b = negb (is_in x b) && forallb (fun y => negb (is_in y a)) b.
Proof.
  induction b as [|y b IH]; [reflexivity|]. cbn [forallb]. rewrite IH.
  change (is_in y (x :: a)) with (bytes_eqb y x || is_in y a). change (is_in x (y :: b)) with (bytes_eqb x y || is_in x b).
  rewrite (bytes_eqb_sym y x). destruct (bytes_eqb x y), (is_in y a), (is_in x b); reflexivity.
Qed.

Lemma no_dup_app a b : no_dup (a ++ b) = no_dup a && no_dup b && forallb (fun x => negb (is_in x a)) b.
Proof.
  induction a as [|x a IH]; cbn [app no_dup].
  - cbn [andb]. rewrite (proj2 (forallb_forall _ b)) by reflexivity. symmetry. apply andb_true_r.
  - rewrite IH, is_in_app, none_in_cons. destruct (is_in x a), (is_in x b), (no_dup a), (no_dup b); reflexivity.
Qed.

Lemma pseudo_first_app a b : pseudo_first (a ++ b) = pseudo_first a && (if existsb (fun n => negb (pseudo n)) a then negb (existsb pseudo b) else pseudo_first b).
Proof.
  induction a as [|n a IH]; cbn [app pseudo_first existsb]; [reflexivity|].
  destruct (pseudo n) eqn:Ep; cbn [negb orb].
  - exact IH.
  - rewrite existsb_app, negb_orb. destruct (negb (existsb pseudo a)); reflexivity.
Qed.

Definition has_regular (p : list hitem) : bool := existsb (fun n => negb (pseudo n)) (names p).
Definition abs (f : hflags) (p : list hitem) : vstate :=
  mkvs (rev (pseudo_names p)) (has_regular p) (value_of s_method p)
       (if skip_req_checks f then None else value_of s_authority p)
       (if skip_req_checks f then None else value_of s_host p).

Definition may_follow (p : list hitem) (n : bytes) : bool :=
  negb (pseudo n) || (negb (is_in n (pseudo_names p)) && negb (has_regular p) && is_in n known_pseudo).

(* the whole-list predicate but for the role conditions, over any predicate on single fields *)
Definition placed (ok : bytes -> bytes -> bool) (hs : list hitem) : bool :=
  forallb (fun h : hitem => ok (fst (fst h)) (snd (fst h))) hs &&
  pseudo_first (names hs) && no_dup (pseudo_names hs) && forallb (fun p => is_in p known_pseudo) (pseudo_names hs).

Lemma placed_snoc ok p h : placed ok (p ++ [h]) = placed ok p && (ok (fst (fst h)) (snd (fst h)) && may_follow p (fst (fst h))).
Proof.
  destruct h as [[n v] ni]. unfold placed, may_follow, has_regular.
  rewrite pseudo_names_app, names_app, !forallb_app, pseudo_first_app, no_dup_app. cbn [fst snd forallb names map pseudo_names filter].
  destruct (forallb _ p); [|reflexivity]. destruct (pseudo_first (names p)); [|rewrite andb_false_r; reflexivity].
  destruct (no_dup (pseudo_names p)); [|rewrite andb_false_r; reflexivity].
  destruct (forallb _ (pseudo_names p)); [|rewrite !andb_false_r; reflexivity].
  destruct (ok n v); [|reflexivity].
  cbn [existsb pseudo_first]. destruct (pseudo n); cbn [negb orb andb no_dup forallb]; [|destruct (existsb _ (names p)); reflexivity].
  destruct (existsb _ (names p)), (is_in n (pseudo_names p)), (is_in n known_pseudo); reflexivity.
Qed.

Lemma abs_nil f : abs f [] = vs0.
Proof. unfold abs. destruct (skip_req_checks f); reflexivity. Qed.

Lemma step_pseudo_abs f p n v ni : step_pseudo (abs f p) n v =
  if may_follow p n
  then VOk (mkvs (vs_pseudo (abs f (p ++ [(n, v, ni)]))) (vs_regular (abs f (p ++ [(n, v, ni)]))) (vs_method (abs f (p ++ [(n, v, ni)])))
                 (vs_authority (abs f p)) (vs_host (abs f p)))
  else VProtocolError.
Proof.
  unfold step_pseudo, may_follow, abs, has_regular, mem_bytes, is_in. cbn [vs_pseudo vs_regular vs_method vs_authority vs_host].
  rewrite pseudo_names_app, names_app, existsb_app, value_of_snoc, rev_app_distr, existsb_rev. cbn [names map pseudo_names filter existsb fst].
  change (starts_colon n) with (pseudo n). change ALLOWED_PSEUDO_HEADER_FIELDS with known_pseudo.
  destruct (pseudo n) eqn:Ep; cbn [negb orb andb rev app].
  - destruct (existsb (bytes_eqb n) (pseudo_names p)); [reflexivity|]. destruct (existsb _ (names p)); [reflexivity|].
    destruct (existsb (bytes_eqb n) known_pseudo); reflexivity.
  - rewrite orb_true_r. destruct (bytes_eqb n s_method) eqn:E; [apply bytes_eqb_eq in E; subst n; discriminate | reflexivity].
Qed.

Lemma check_path_blk f n v :
  check_path f n v = match blk f with Request => bytes_eqb n s_path && match v with [] => true | _ => false end | _ => false end.
Proof. unfold check_path, skip_req_checks, blk. destruct (hf_trailer f), (hf_response f); reflexivity. Qed.

Lemma step_common_sem f p n v ni : step_common f (abs f p) n v =
  if sem_ok (blk f) n v && may_follow p n then VOk (abs f (p ++ [(n, v, ni)])) else VProtocolError.
Proof.
  unfold step_common, sem_ok. rewrite (step_pseudo_abs f p n v ni), check_path_blk.
  change (check_conn n) with (is_in n connection_specific). change (check_te n v) with (bytes_eqb n s_te && negb (bytes_eqb (map low v) s_trailers)).
  destruct (is_in n connection_specific); [destruct (bytes_eqb n s_te && _); reflexivity|]. destruct (bytes_eqb n s_te && _); [reflexivity|].
  destruct (may_follow p n); [|rewrite andb_false_r; reflexivity]. destruct (match blk f with Request => _ | _ => false end); [reflexivity|].
  cbn [negb andb]. f_equal. unfold step_host, abs. cbn [vs_pseudo vs_regular vs_method vs_authority vs_host]. rewrite !value_of_snoc.
  change b_authority with s_authority. change b_host with s_host. destruct (skip_req_checks f); [reflexivity|].
  destruct (bytes_eqb n s_authority) eqn:Ea; [apply bytes_eqb_eq in Ea; subst n; reflexivity|]. destruct (bytes_eqb n s_host); reflexivity.
Qed.

Lemma check_ws_spec n v :
  check_ws n v = if negb (match n with [] => true | _ => false end) && no_surrounding_ws n && no_surrounding_ws v then VOk vs0 else VProtocolError.
Proof.
  unfold check_ws, no_surrounding_ws. destruct n as [|c n0]; [reflexivity|]. cbn [negb andb].
  change is_ws with ws. destruct (ws c); [reflexivity|]. destruct (ws (last (c :: n0) 0)); [reflexivity|].
  destruct v as [|d v0]; [reflexivity|]. destruct (ws d); [reflexivity|]. destruct (ws (last (d :: v0) 0)); reflexivity.
Qed.

Lemma step_inbound_spelled f s n v : step_inbound f s n v = if spelled_ok n v then step_common f s n v else VProtocolError.
Proof.
  unfold step_inbound, spelled_ok. rewrite check_ws_spec. change (check_upper n) with (existsb upper n).
  destruct (existsb upper n); [destruct n; reflexivity|]. cbn [negb]. rewrite andb_true_r. destruct (_ && _ && _); reflexivity.
Qed.

Lemma step_inbound_abs f p n v ni : step_inbound f (abs f p) n v =
  if field_ok (blk f) n v && may_follow p n then VOk (abs f (p ++ [(n, v, ni)])) else VProtocolError.
Proof. rewrite step_inbound_spelled, (step_common_sem f p n v ni), field_ok_split. destruct (spelled_ok n v); reflexivity. Qed.

Lemma existsb_single x ps : existsb (fun p => existsb (bytes_eqb p) [x]) ps = existsb (bytes_eqb x) ps.
Proof. induction ps as [|y ps IH]; [reflexivity|]. cbn [existsb] in *. rewrite IH, orb_false_r, (bytes_eqb_sym y x). reflexivity. Qed.

(* the hypothesis holds of every flag set H2Stream builds: build_flags never sets both (C15_build_flags_exclusive) *)
Lemma end_checks_spec f hs : hf_trailer f && hf_response f = false ->
  end_checks f (abs f hs) = negb (role_ok (blk f) hs).
Proof.
  intros Hf. unfold end_checks, role_ok, has, abs, mem_bytes, is_in, skip_req_checks, blk. cbn [vs_pseudo vs_method vs_authority vs_host].
  rewrite !existsb_rev. destruct (hf_trailer f); cbn [andb negb orb] in *.
  - rewrite Hf. destruct (pseudo_names hs) as [|x l]; [reflexivity|]. cbn [rev]. destruct (rev l); reflexivity.
  - destruct (hf_response f); [rewrite negb_andb, negb_involutive; reflexivity|].
    change RESPONSE_ONLY_HEADERS with [s_status]. change CONNECT_REQUEST_ONLY_HEADERS with [s_protocol]. rewrite !existsb_single.
    change b_path with s_path. change b_method with s_method. change b_scheme with s_scheme. change b_CONNECT with s_CONNECT.
    destruct (existsb (bytes_eqb s_path) _), (existsb (bytes_eqb s_method) _), (existsb (bytes_eqb s_scheme) _), (existsb (bytes_eqb s_status) _);
      try reflexivity; cbn [negb orb andb].
    destruct (existsb (bytes_eqb s_protocol) _), (match value_of s_method hs with Some m => _ | None => false end);
      destruct (value_of s_authority hs), (value_of s_host hs); reflexivity.
Qed.

Definition decodable (cfg : config) (h : hitem) : bool :=
  negb (cfg_header_encoding cfg && (undecodable (fst (fst h)) || undecodable (snd (fst h)))).
Definition delivered (cfg : config) (hs : list hitem) : list hitem := if cfg_normalize_in cfg then combine_cookies hs else hs.

Lemma step_full_abs cfg f p n v ni : cfg_validate_in cfg = true ->
  step_inbound_full cfg f (abs f p) n v =
  if field_ok (blk f) n v && may_follow p n then if decodable cfg (n, v, ni) then VOk (abs f (p ++ [(n, v, ni)])) else VUnicodeError
  else VProtocolError.
Proof.
  intros Hv. unfold step_inbound_full, decodable. rewrite Hv, (step_inbound_abs f p n v ni).
  destruct (_ && may_follow p n); [|reflexivity]. cbn [fst snd]. destruct (cfg_header_encoding cfg && _); reflexivity.
Qed.

Theorem inbound_validation_accepts_exactly_the_conformant_blocks cfg f hs :
  cfg_validate_in cfg = true -> hf_trailer f && hf_response f = false ->
  process_received_headers cfg f hs =
  if conformant (blk f) (delivered cfg hs) && forallb (decodable cfg) (delivered cfg hs) then Ok (delivered cfg hs) else perr.
Proof.
  intros Hv Hf. unfold process_received_headers, inbound_pipeline. fold (delivered cfg hs).
  pose proof (one_pass _ (abs f) _ _ _ (placed_snoc (field_ok (blk f))) (fun p n v ni => step_full_abs cfg f p n v ni Hv)
                (delivered cfg hs) [] [] eq_refl) as H.
  rewrite abs_nil in H. cbn [app rev] in H. destruct (run_steps _ vs0 _ []) as [[out r] s].
  change (conformant (blk f) (delivered cfg hs)) with (placed (field_ok (blk f)) (delivered cfg hs) && role_ok (blk f) (delivered cfg hs)).
  destruct (placed _ _).
  - destruct (forallb _ _); [|rewrite andb_false_r; destruct H as [[-> | [-> _]] _]; reflexivity].
    destruct H as (-> & _ & ->). rewrite Hv, (end_checks_spec f _ Hf). destruct (role_ok _ _); reflexivity.
  - destruct H as [[-> | [-> _]] _]; reflexivity.
Qed.
