(* What the connection-level primitives compute, as equations to rewrite with: one closed form [x_eq] per primitive
   ([for_streams_spec] for the pass over the stream table, [terminate_closed_form], [receive_frame_tail] for what
   _receive_frame does after the handler), the special cases used most as corollaries.  Proofs about
   handlers rewrite with these instead of unfolding the primitives; Proofs/FrameConn.v reads the one write of each
   primitive off its closed form. *)
From H2 Require Import Base.Prelude Base.PyDict Model.FsmTypes Gen.Tables Gen.Guards Model.Types Model.Windows
  Model.Settings Model.StreamFSM Model.Stream Model.ConnState Model.Connection.

Lemma bind_ok_eq {S A B} (m : M S A) (k : A -> M S B) s s1 a : m s = (s1, Ok a) -> bind m k s = k a s1.
Proof. unfold bind. intros ->. reflexivity. Qed.
Lemma bind_get {S B} (k : S -> M S B) s : bind get k s = k s s.
Proof. reflexivity. Qed.
Lemma bind_ret {S A B} (a : A) (k : A -> M S B) s : bind (ret a) k s = k a s.
Proof. reflexivity. Qed.
Lemma bind_ok {S A B} (m : M S A) (k : A -> M S B) s s' (v : B) :
  bind m k s = (s', Ok v) -> exists s1 a, m s = (s1, Ok a) /\ k a s1 = (s', Ok v).
Proof. unfold bind. destruct (m s) as [s1 [a| |]]; intros H; try discriminate. eauto. Qed.
Lemma bind_not_ok {S A B} (m : M S A) (k : A -> M S B) s s1 r :
  m s = (s1, r) -> is_ok r = false ->
  bind m k s = (s1, match r with Err e c i b => Err e c i b | Crash p => Crash p | Ok _ => Crash KeyError end).
Proof. unfold bind. intros -> H. destruct r; [discriminate|reflexivity|reflexivity]. Qed.

Lemma cset_state_same c : cset_state c (c_state c) = c.   Proof. destruct c; reflexivity. Qed.
Lemma cset_out_same c : cset_out c (c_out c) = c.         Proof. destruct c; reflexivity. Qed.
Lemma cset_inbuf_same c : cset_inbuf c (c_inbuf c) = c.   Proof. destruct c; reflexivity. Qed.
Lemma cset_out_twice c a b : cset_out (cset_out c a) b = cset_out c b.   Proof. destruct c; reflexivity. Qed.

Definition next_state (s : cstate) (i : cinput) : cstate :=
  match conn_transition s i with Some t => t | None => C_CLOSED end.
Lemma cfsm_eq i c :
  cfsm i c = (cset_state c (next_state (c_state c) i), if conn_transition (c_state c) i then Ok tt else perr).
Proof. unfold cfsm, next_state. destruct (conn_transition _ _); reflexivity. Qed.
Lemma cfsm_some i c t : conn_transition (c_state c) i = Some t -> cfsm i c = (cset_state c t, Ok tt).
Proof. intros H. rewrite cfsm_eq. unfold next_state. rewrite H. reflexivity. Qed.
Lemma cfsm_none i c : conn_transition (c_state c) i = None -> cfsm i c = (cset_state c C_CLOSED, perr).
Proof. intros H. rewrite cfsm_eq. unfold next_state. rewrite H. reflexivity. Qed.

Definition housekeeping (i : cinput) : bool :=
  match i with
  | CI_SEND_WINDOW_UPDATE | CI_SEND_PING | CI_SEND_SETTINGS | CI_SEND_PRIORITY
  | CI_RECV_WINDOW_UPDATE | CI_RECV_PING | CI_RECV_SETTINGS | CI_RECV_PRIORITY | CI_RECV_ALTERNATIVE_SERVICE => true
  | _ => false
  end.
Lemma housekeeping_table i s : housekeeping i = true ->
  conn_transition s i = if cstate_eqb s C_CLOSED then None else Some s.
Proof. destruct i; try discriminate; destruct s; reflexivity. Qed.
Lemma housekeeping_refused i s : housekeeping i = true -> conn_transition s i = None <-> s = C_CLOSED.
Proof. intros Hi. rewrite (housekeeping_table i s Hi). destruct s; cbn; split; congruence. Qed.
Lemma cfsm_housekeeping i c : housekeeping i = true -> c_state c <> C_CLOSED -> cfsm i c = (c, Ok tt).
Proof.
  intros Hi Ho. rewrite (cfsm_some i c (c_state c)); [rewrite cset_state_same; reflexivity|].
  rewrite (housekeeping_table i _ Hi). destruct (c_state c); try reflexivity. contradiction.
Qed.
Lemma cfsm_goaway i c : i = CI_SEND_GOAWAY \/ i = CI_RECV_GOAWAY -> cfsm i c = (cset_state c C_CLOSED, Ok tt).
Proof. intros [-> | ->]; apply cfsm_some; destruct (c_state c); reflexivity. Qed.

(* _prepare_for_sending appends the frames first; its size assertion comes after *)
Lemma prepare_eq fs c :
  prepare_for_sending fs c =
  (cset_out c (c_out c ++ fs), if forallb (fun f => body_len f <=? c_max_out_frame c) fs then Ok tt else Crash AssertionError).
Proof.
  unfold prepare_for_sending. destruct fs as [|f fs]; [rewrite app_nil_r, cset_out_same; reflexivity|].
  destruct (forallb _ _); reflexivity.
Qed.
Lemma prepare_ok fs c : forallb (fun f => body_len f <=? c_max_out_frame c) fs = true ->
  prepare_for_sending fs c = (cset_out c (c_out c ++ fs), Ok tt).
Proof. intros H. rewrite prepare_eq, H. reflexivity. Qed.
(* 16384 is the least MAX_FRAME_SIZE a peer can set; the limit in force is never below it (Proofs/MfsInv.v) *)
Lemma prepare_small fs c : 16384 <= c_max_out_frame c -> forallb (fun f => body_len f <=? 16384) fs = true ->
  prepare_for_sending fs c = (cset_out c (c_out c ++ fs), Ok tt).
Proof.
  intros Hm Hs. apply prepare_ok. rewrite forallb_forall in *. intros x Hx. specialize (Hs x Hx). lia.
Qed.
Lemma prepare_for_sending_spec fs c c' :
  prepare_for_sending fs c = (c', Ok tt) ->
  c' = cset_out c (c_out c ++ fs) /\ forallb (fun f => body_len f <=? c_max_out_frame c) fs = true.
Proof. rewrite prepare_eq. destruct (forallb _ _); [intros [= <-]; split; reflexivity | discriminate]. Qed.

(* _terminate_connection; 8 is the body length of a GOAWAY without debug data, which _prepare_for_sending asserts to fit *)
Lemma terminate_closed_form code c :
  terminate_connection code c =
  let c1 := cset_state c C_CLOSED in
  let c2 := cset_out c1 (c_out c ++ [FGoAway (c_hi_in c) code 0]) in
  (c2, if 8 <=? c_max_out_frame c then Ok tt else Crash AssertionError).
Proof.
  unfold terminate_connection. unfold bind at 1, get at 1. rewrite (bind_ok_eq _ _ _ _ _ (cfsm_goaway CI_SEND_GOAWAY c (or_introl eq_refl))), prepare_eq.
  cbn. destruct (_ <=? _); reflexivity.
Qed.

Lemma terminate_ok code c : 8 <= c_max_out_frame c ->
  terminate_connection code c = (cset_out (cset_state c C_CLOSED) (c_out c ++ [FGoAway (c_hi_in c) code 0]), Ok tt).
Proof. intros H. rewrite terminate_closed_form. cbv zeta. destruct (8 <=? c_max_out_frame c) eqn:E; [reflexivity|lia]. Qed.

(* _receive_frame after the handler: it queues the handler's frames, or one RST_STREAM in answer to a frame for a stream that
   a reset closed, or it leaves the state as the handler left it and raises an h2 exception or passes the handler's Python
   exception on *)
Lemma receive_frame_tail f c c0 r0 c1 r : dispatch f c = (c0, r0) -> receive_frame f c = (c1, r) ->
  (exists fs evs, (prepare_for_sending fs ;;; ret evs) c0 = (c1, r) /\ (r0 = Ok (fs, evs) \/ exists sid code, fs = [FRstStream sid code])) \/
  c1 = c0 /\ ((exists e code sid rst, r = Err e code sid rst) \/ exists p, r = Crash p /\ r0 = Crash p).
Proof.
  intros Ed H. unfold receive_frame in H. rewrite Ed in H.
  destruct r0 as [[frames evs]|e code sid rst|p]; [left; eauto | | right; injection H as <- <-; eauto].
  (* every exception but two passes *)
  match goal with |- ?G => assert (Pass : forall x co i b, (c0, @Err (list event) x co i b) = (c1, r) -> G)
    by (intros x co i b [= <- <-]; right; split; [reflexivity | left; do 4 eexists; reflexivity]) end.
  destruct e; try exact (Pass _ _ _ _ H).
  - destruct (closed_by_reset c0 sid); [left; eauto 7 | destruct (closed_by_end c0 sid); exact (Pass _ _ _ _ H)].
  - destruct (closed_by_reset c0 sid); [left; eauto 7 | exact (Pass _ _ _ _ H)].
Qed.

Lemma lift_cwm_eq {A} (f : wm -> wm * res A) c : lift_cwm f c = (cset_in_wm c (fst (f (c_in_wm c))), snd (f (c_in_wm c))).
Proof. unfold lift_cwm. destruct (f (c_in_wm c)); reflexivity. Qed.

Lemma lift_local_eq {A} (f : settings -> settings * res A) c : lift_local f c = (cset_local c (fst (f (c_local c))), snd (f (c_local c))).
Proof. unfold lift_local. destruct (f (c_local c)); reflexivity. Qed.
Lemma lift_remote_eq {A} (f : settings -> settings * res A) c : lift_remote f c = (cset_remote c (fst (f (c_remote c))), snd (f (c_remote c))).
Proof. unfold lift_remote. destruct (f (c_remote c)); reflexivity. Qed.

(* the function that acknowledge_settings and local_settings_acked lift *)
Lemma ack_lifted (s : settings) :
  (let '(s', ch) := sacknowledge s in (s', Ok ch)) = (fst (sacknowledge s), Ok (snd (sacknowledge s))).
Proof. destruct (sacknowledge s); reflexivity. Qed.

Definition opened (sid : Z) (c : conn) : conn :=
  let s := stream_new sid (s_initial_window_size (c_local c)) (s_initial_window_size (c_remote c)) (c_max_out_frame c) in
  let c1 := cset_streams c (dset sid s (c_streams c)) in
  if is_outbound c sid then cset_hi_out c1 sid else cset_hi_in c1 sid.
Lemma opened_streams sid c : exists s, c_streams (opened sid c) = dset sid s (c_streams c).
Proof. eexists. unfold opened. destruct (is_outbound c sid); reflexivity. Qed.
Lemma begin_new_stream_eq sid allowed c :
  begin_new_stream sid allowed c =
  if sid <=? highest_for c sid then (c, Err StreamIDTooLowError 1 sid false)
  else if sid mod 2 =? allowed then (opened sid c, Ok tt) else (c, perr).
Proof.
  unfold begin_new_stream, bind, get, g_begin_low, g_begin_parity. destruct (sid <=? _); [reflexivity|].
  destruct (sid mod 2 =? allowed); reflexivity.
Qed.
Lemma begin_new_stream_ok sid allowed c c' u : begin_new_stream sid allowed c = (c', Ok u) ->
  sid > highest_for c sid /\ sid mod 2 = allowed /\ c' = opened sid c.
Proof.
  rewrite begin_new_stream_eq. destruct (sid <=? highest_for c sid) eqn:E1; [discriminate|].
  destruct (sid mod 2 =? allowed) eqn:E2; [|discriminate]. intros [= <-]. repeat split; lia.
Qed.

Definition lookup_error {A} (c : conn) (sid : Z) : res A :=
  if sid >? highest_for c sid then Err NoSuchStreamError 1 sid false else Err StreamClosedError 5 sid false.

Lemma get_stream_by_id_eq sid c :
  get_stream_by_id sid c = (c, match dget sid (c_streams c) with Some s => Ok s | None => lookup_error c sid end).
Proof.
  unfold get_stream_by_id, bind, get, lookup_error, g_get_stream_nosuch. destruct (dget sid (c_streams c)); [reflexivity|].
  destruct (sid >? highest_for c sid); reflexivity.
Qed.
Lemma get_stream_by_id_some sid c s : dget sid (c_streams c) = Some s -> get_stream_by_id sid c = (c, Ok s).
Proof. intros H. rewrite get_stream_by_id_eq, H. reflexivity. Qed.
Lemma get_stream_by_id_none sid c : dget sid (c_streams c) = None -> get_stream_by_id sid c = (c, lookup_error c sid).
Proof. intros H. rewrite get_stream_by_id_eq, H. reflexivity. Qed.
Lemma bind_lookup_error {A B} (m : CM A) (k : A -> CM B) c c1 c0 sid : m c = (c1, lookup_error c0 sid) -> bind m k c = (c1, lookup_error c0 sid).
Proof. unfold bind, lookup_error. intros ->. destruct (_ >? _); reflexivity. Qed.
Lemma lookup_unknown {B} sid (k : stream -> CM B) c : dget sid (c_streams c) = None ->
  bind (get_stream_by_id sid) k c = (c, lookup_error c sid).
Proof. intros H. exact (bind_lookup_error _ _ _ _ _ _ (get_stream_by_id_none sid c H)). Qed.

Lemma lookup_known {B} sid (k : stream -> CM B) c s : dget sid (c_streams c) = Some s ->
  bind (get_stream_by_id sid) k c = k s c.
Proof. intros H. exact (bind_ok_eq _ _ _ _ _ (get_stream_by_id_some sid c s H)). Qed.

Lemma lfcw_eq sid c :
  local_flow_control_window sid c =
  (c, match dget sid (c_streams c) with Some s => Ok (Z.min (c_out_win c) (s_out_win s)) | None => lookup_error c sid end).
Proof.
  unfold local_flow_control_window. destruct (dget sid (c_streams c)) as [s|] eqn:E; [|exact (lookup_unknown _ _ _ E)].
  rewrite (lookup_known _ _ _ _ E). reflexivity.
Qed.

Lemma with_stream_eq {A} sid (f : SM A) c :
  with_stream sid f c = match dget sid (c_streams c) with
                        | Some s => (cset_streams c (dset sid (fst (f s)) (c_streams c)), snd (f s))
                        | None => (c, Crash KeyError)
                        end.
Proof. unfold with_stream. destruct (dget sid (c_streams c)) as [s|]; [destruct (f s)|]; reflexivity. Qed.
Lemma with_stream_some {A} sid (f : SM A) c s : dget sid (c_streams c) = Some s ->
  with_stream sid f c = (cset_streams c (dset sid (fst (f s)) (c_streams c)), snd (f s)).
Proof. intros H. rewrite with_stream_eq, H. reflexivity. Qed.
Lemma lookup_error_state {A} c t sid : @lookup_error A (cset_state c t) sid = lookup_error c sid.
Proof. destruct c; reflexivity. Qed.

Lemma for_streams_spec f c c' r : for_streams f c = (c', r) ->
  exists ss, c' = cset_streams c ss /\ map fst ss = map fst (c_streams c) /\
    (r = Ok tt -> forall sid s, dget sid (c_streams c) = Some s -> exists s', f s = (s', Ok tt) /\ dget sid ss = Some s').
Proof.
  unfold for_streams.
  match goal with |- (let '(_, _) := ?g ?l in _) = _ -> _ => set (go := g); generalize l as l0 end.
  intros l0. destruct (go l0) as [ss rr] eqn:E. intros H. injection H as <- <-. exists ss. split; [reflexivity|].
  revert ss rr E. induction l0 as [|[k s] l IH]; intros ss rr E; cbn in E.
  - injection E as <- _. split; [reflexivity | discriminate].
  - destruct (f s) as [s' [[]| |]] eqn:Ef; [|injection E as <- <-; split; [reflexivity | discriminate]..].
    destruct (go l) as [l' r2]. injection E as <- <-. destruct (IH _ _ eq_refl) as [Hk Hv]. split; [cbn; f_equal; exact Hk|].
    intros Hr sid s0. cbn [dget]. destruct (sid =? k); [intros [= <-]; eauto | apply (Hv Hr)].
Qed.
