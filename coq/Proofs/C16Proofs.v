(* content-length accounting of H2Stream (the kernel is translated from stream.py on every run). *)
From H2 Require Import Base.Prelude Gen.Kernels Model.Stream.

Lemma track_is_translated len es s :
  let '(s', r) := track_content_length len es s in
  let '((act, exp), r') := k_track_content_length (s_act_cl s) (s_exp_cl s) len es in
  s' = set_cl s exp act /\ r = r'.
Proof.
  unfold track_content_length, k_track_content_length. destruct (s_exp_cl s) as [e|].
  - destruct (e <? s_act_cl s + len); [split; reflexivity|].
    destruct (es && negb (e =? s_act_cl s + len)); split; reflexivity.
  - split; reflexivity.
Qed.

(* DATA frames of a message: payload length and END_STREAM flag, fed one after the other; -> accepted? and the running total *)
Fixpoint track_all (s : stream) (chunks : list (Z * bool)) : bool * stream :=
  match chunks with
  | [] => (true, s)
  | (l, es) :: r =>
      match track_content_length l es s with
      | (s1, Ok _) => track_all s1 r
      | (s1, _) => (false, s1)
      end
  end.

Definition total (chunks : list (Z * bool)) : Z := fold_right (fun c acc => fst c + acc) 0 chunks.
Definition plain_chunks (ls : list Z) : list (Z * bool) := map (fun l => (l, false)) ls.

Lemma total_cons l ls : total (plain_chunks (l :: ls)) = l + total (plain_chunks ls).
Proof. reflexivity. Qed.
Lemma total_nonneg ls : Forall (fun l => 0 <= l) ls -> 0 <= total (plain_chunks ls).
Proof. induction 1 as [|x ls Hx Hls IH]; [cbn; lia|]. rewrite total_cons. lia. Qed.

(* with a content-length n, what is accepted depends on the running total only: every total within n, and equal to n where
   END_STREAM is set *)
Fixpoint within (n a : Z) (chunks : list (Z * bool)) : bool :=
  match chunks with
  | [] => true
  | (l, es) :: r => (a + l <=? n) && (negb es || (a + l =? n)) && within n (a + l) r
  end.

Lemma track_all_within n chunks : forall s, s_exp_cl s = Some n -> fst (track_all s chunks) = within n (s_act_cl s) chunks.
Proof.
  induction chunks as [|[l es] r IH]; intros s He; [reflexivity|]. cbn [track_all within]. unfold track_content_length. rewrite He.
  rewrite Z.leb_antisym, (Z.eqb_sym _ n). destruct (n <? s_act_cl s + l); [reflexivity|].
  destruct es, (n =? s_act_cl s + l); try reflexivity; apply IH; reflexivity.
Qed.

Lemma within_app n c1 : forall a c2, within n a (c1 ++ c2) = within n a c1 && within n (a + total c1) c2.
Proof.
  induction c1 as [|[l es] r IH]; intros a c2; cbn [app within total fold_right fst]; [rewrite Z.add_0_r; reflexivity|].
  rewrite IH, Z.add_assoc, !andb_assoc. reflexivity.
Qed.

(* sizes are not negative, so the last running total is the largest *)
Lemma within_plain n : forall ls a, Forall (fun l => 0 <= l) ls ->
  within n a (plain_chunks ls) = match ls with [] => true | _ => a + total (plain_chunks ls) <=? n end.
Proof.
  induction ls as [|x ls IH]; intros a Hnn; [reflexivity|].
  inversion Hnn as [|? ? Hx Hls]; subst. pose proof (total_nonneg ls Hls) as Hp. rewrite total_cons, Z.add_assoc.
  cbn [plain_chunks map within negb orb]. fold (plain_chunks ls). rewrite (IH _ Hls), andb_true_r.
  destruct ls; [cbn [plain_chunks map total fold_right] |]; lia.
Qed.
