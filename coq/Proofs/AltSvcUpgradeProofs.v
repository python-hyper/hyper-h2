(* RFC 7838 advertisement rules (C24): the role check of advertise_alternative_service, and the
   rules of the stream state machine as boolean predicates on one of its states, which Properties/C24.v checks over the
   reachable states of Proofs/FsmReach.v. *)
From H2 Require Import Base.Prelude Model.FsmTypes Model.Types Model.StreamFSM Model.Connection Proofs.FsmReach
  Proofs.C0708Proofs.

(* only servers advertise (fix 4e7b916): on a client-side connection, in EVERY state, the call fails and changes nothing *)
Theorem client_cannot_advertise field origin sid c :
  client c = true -> exists r, api_advertise_alt_svc field origin sid c = (c, r) /\ is_ok r = false.
Proof.
  intros Hc. unfold api_advertise_alt_svc, bind, get. destruct origin, sid; rewrite ?Hc; eexists; split; reflexivity.
Qed.
(* H2StreamStateMachine.send_alt_svc: a stream advertisement needs the request received and no response headers sent yet *)
Definition c24_send_rule (m : sm) : bool :=
  negb (accepted m SI_SEND_ALTERNATIVE_SERVICE) || (negb (sm_hs m) && sm_hr m && negb (client_side m)).

(* H2StreamStateMachine.recv_alt_svc: the event only on a client-side stream that has not received response headers yet *)
Definition c24_recv_rule (m : sm) : bool :=
  negb (has_ev SE_AltSvc m SI_RECV_ALTERNATIVE_SERVICE) || (client_side m && negb (sm_hr m)).
(* a received ALTSVC never moves a stream, and is refused at most on an idle one *)
Definition c24_neutral (m : sm) : bool :=
  match process_input 7 m SI_RECV_ALTERNATIVE_SERVICE with (m', Ok _) => sstate_eqb (sm_state m') (sm_state m) | _ => sstate_eqb (sm_state m) S_IDLE end.
Lemma c24_neutral_checked : forallb c24_neutral reach = true.
Proof. vm_compute. reflexivity. Qed.
