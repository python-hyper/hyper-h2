From H2 Require Import Base.Prelude Model.FsmTypes Model.Types Model.StreamFSM Model.ConnState Model.Connection
  Proofs.ConnPrims Proofs.Frame Proofs.InvTac.

Definition closed (c : conn) : Prop := c_state c = C_CLOSED.

Lemma cfsm_closed i c : closed c ->
  cfsm i c = (c, if match i with CI_SEND_GOAWAY | CI_RECV_GOAWAY => true | _ => false end then Ok tt else perr).
Proof.
  unfold closed. intros H. rewrite cfsm_eq, H. destruct i; cbn; rewrite <- H, cset_state_same; reflexivity.
Qed.

Definition quiet {A} (m : CM A) : Prop :=
  forall c c' r, closed c -> m c = (c', r) -> c_out c' = c_out c /\ is_ok r = false.

(* The emitting calls feed an input other than GOAWAY to the state machine, which refuses it, after steps that write
   neither the output nor the state. *)
Lemma quiet_cfsm i {B} (k : unit -> CM B) : match i with CI_SEND_GOAWAY | CI_RECV_GOAWAY => False | _ => True end -> quiet (bind (cfsm i) k).
Proof.
  intros Hi c c' r Hc. unfold bind. rewrite (cfsm_closed i c Hc).
  destruct i; try contradiction; intros H; injection H as <- <-; split; reflexivity.
Qed.
Lemma quiet_after {A B} (m : CM A) (k : A -> CM B) :
  keeps (peq (fun c => (c_out c, c_state c))) m -> (forall a, quiet (k a)) -> quiet (bind m k).
Proof.
  intros Hm Hk c c' r Hc H. unfold bind in H. destruct (m c) as [c1 r1] eqn:E. pose proof (Hm _ _ _ E) as Hp. injection Hp as Ho Hs.
  destruct r1 as [a| |]; [|injection H as <- <-; split; [exact Ho|reflexivity]..].
  destruct (Hk a c1 c' r) as [H1 H2]; [unfold closed; congruence | exact H | split; [congruence | exact H2]].
Qed.
(* fail, crash and lift_res of an exception: the state as it was, and no value *)
Lemma quiet_stop {A} (r : res A) : is_ok r = false -> quiet (fun c => (c, r)).
Proof. intros Hr c c' r' _ H. injection H as <- <-. split; [reflexivity | exact Hr]. Qed.
Lemma quiet_perr {A} : quiet (@lift_res conn A perr).
Proof. exact (quiet_stop perr eq_refl). Qed.

(* steps that write neither the output nor the state, then an input that the state machine refuses *)
Ltac refused := repeat (apply quiet_after; [solve [unread_walk] | intros ?]); apply quiet_cfsm; exact I.
