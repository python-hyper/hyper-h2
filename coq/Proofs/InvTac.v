(* History invariants.  An invariant that every handler keeps holds after every operation ([step_inv]) and every history
   ([run_inv]).  The atomic writes of Model/Connection.v are one relation [upd wf c c']: one constructor per hypothesis of
   FrameConn's section ([u_state] for both W_state and W_open), and [u_inbuf] for the buffer that receive_data writes back
   at its end, which no handler touches.  An invariant that every write keeps holds after every history ([run_upd]).
   To prove a new history invariant, case on [upd]; for an invariant about a projection of the state, every write to
   another field leaves a goal that is the hypothesis up to computation. *)
From H2 Require Import Base.Prelude Base.PyDict Gen.Consts Model.Types Model.Settings Model.Stream Model.ConnState
  Model.Connection Proofs.ConnPrims Proofs.Frame Proofs.FrameConn Proofs.Inv.

Theorem run_steps (I : conn -> Prop) (ok : op -> Prop) :
  (forall c o c' r, I c -> ok o -> step c o = (c', r) -> I c') -> forall os c, I c -> Forall ok os -> I (run c os).
Proof.
  intros Hs. induction os as [|o os IH]; intros c Hc Hw; cbn [run fold_left]; [exact Hc|].
  inversion Hw as [|? ? Ho Hos]; subst. apply IH; [|exact Hos].
  destruct (step c o) as [c' r] eqn:E. exact (Hs _ _ _ _ Hc Ho E).
Qed.

Lemma step_receive fs c c' r : step c (OReceive fs) = (c', r) -> exists r1, api_receive fs c = (c', r1).
Proof. cbn [step]. unfold bind. destruct (api_receive fs c) as [c1 [evs|e co i b|p]]; intros H; injection H as <- _; eauto. Qed.

Section StepLift.
Variable I : conn -> Prop.
Variable wf : rframe -> Prop.
Hypothesis I_wf : forall c, I c -> Forall (fun e => wf (fst e)) (c_inbuf c).
Hypothesis I_inbuf : forall c v, I c -> Forall (fun e => wf (fst e)) v -> I (cset_inbuf c v).
Hypothesis I_out : forall c v, I c -> I (cset_out c v).
Hypothesis H_initiate : pres_inv I initiate_connection.
Hypothesis H_upgrade : forall hdr, pres_inv I (api_initiate_upgrade hdr).
Hypothesis H_send_headers : forall sid hs L es pw pd pe, pres_inv I (api_send_headers sid hs L es pw pd pe).
Hypothesis H_send_data : forall sid len es pad, pres_inv I (api_send_data sid len es pad).
Hypothesis H_end_stream : forall sid, pres_inv I (api_end_stream sid).
Hypothesis H_increment : forall inc sid, pres_inv I (api_increment_window inc sid).
Hypothesis H_push : forall sid pr hs L, pres_inv I (api_push_stream sid pr hs L).
Hypothesis H_ping : forall pl, pres_inv I (api_ping pl).
Hypothesis H_reset : forall sid code, pres_inv I (api_reset_stream sid code).
Hypothesis H_close : forall code last dbg, pres_inv I (api_close_connection code last dbg).
Hypothesis H_update : forall kvs, pres_inv I (api_update_settings kvs).
Hypothesis H_altsvc : forall f o s, pres_inv I (api_advertise_alt_svc f o s).
Hypothesis H_prioritize : forall sid w d e, pres_inv I (api_prioritize sid w d e).
Hypothesis H_ack : forall n sid, pres_inv I (api_acknowledge_received_data n sid).
Hypothesis H_next : pres_inv I api_next_stream_id.
Hypothesis H_lw : forall sid, pres_inv I (local_flow_control_window sid).
Hypothesis H_rw : forall sid, pres_inv I (remote_flow_control_window sid).
Hypothesis H_oo : pres_inv I open_outbound_streams.
Hypothesis H_oi : pres_inv I open_inbound_streams.

Definition wf_op (o : op) : Prop :=
  match o with OReceive fs => Forall (fun e => wf (fst e)) fs | _ => True end.

(* every operation but receive_data and the drain is one handler followed by a ret; what receive_data needs is said separately
   (Inv.api_receive_inv, Inv.api_receive_guarded) *)
Lemma pinv_answer {A} (m : CM A) (f : A -> answer) : pres_inv I m -> pres_inv I (v <- m ;; ret (f v)).
Proof.
  intros H. apply pres_inv_of_keeps, (keeps_bind _ (imp_trans I)); [exact (keeps_of_pres_inv I m H) | intros a].
  apply (keeps_pure _ (imp_refl I)). reflexivity.
Qed.

Hypothesis H_frame : forall f, wf f -> pres_inv I (receive_frame f).
Hypothesis H_terminate : forall code, pres_inv I (terminate_connection code).

Theorem step_inv c o c' r : I c -> wf_op o -> step c o = (c', r) -> I c'.
Proof.
  intros Hc Hw H. destruct o; cbn [step] in H; try (revert H; revert Hc; apply pinv_answer; auto; fail).
  - (* ODrain: data_to_send empties the output buffer *) injection H as <- _. apply I_out. exact Hc.
  - destruct (step_receive _ _ _ _ H) as [r1 E]. exact (api_receive_inv I wf I_wf I_inbuf H_frame H_terminate fs c c' r1 Hc Hw E).
Qed.

Theorem run_inv os : forall c, I c -> Forall wf_op os -> I (run c os).
Proof. exact (run_steps I wf_op step_inv os). Qed.
End StepLift.

Inductive upd (wf : rframe -> Prop) (c : conn) : conn -> Prop :=
| u_state i : upd wf c (cset_state c (next_state (c_state c) i))
| u_out v : upd wf c (cset_out c v)
| u_reap r : upd wf c (fst (open_streams r c))
| u_new_out sid s : c_hi_out c < sid -> upd wf c (cset_hi_out (cset_streams c (dset sid s (c_streams c))) sid)
| u_new_in sid s : c_hi_in c < sid -> upd wf c (cset_hi_in (cset_streams c (dset sid s (c_streams c))) sid)
| u_stream sid s s' : dget sid (c_streams c) = Some s -> upd wf c (cset_streams c (dset sid s' (c_streams c)))
| u_streams ss : map fst ss = map fst (c_streams c) -> upd wf c (cset_streams c ss)
| u_local_update kvs : upd wf c (cset_local c (fst (supdate kvs (c_local c))))
| u_local_ack : upd wf c (cset_local c (fst (sacknowledge (c_local c))))
| u_remote_update kvs : upd wf c (cset_remote c (fst (supdate kvs (c_remote c))))
| u_remote_ack : upd wf c (cset_remote c (fst (sacknowledge (c_remote c))))
| u_in_wm v : upd wf c (cset_in_wm c v)
| u_enc_log v : upd wf c (cset_enc_log c v)
| u_dec_log v : upd wf c (cset_dec_log c v)
| u_enc_table_size v : upd wf c (cset_enc_table_size c v)
| u_dec_max_hls v : upd wf c (cset_dec_max_hls c v)
| u_max_in_frame v : upd wf c (cset_max_in_frame c v)
| u_max_out_frame s0 old new g (Hacked : c_remote c = fst (sacknowledge s0))
    (Hnew : In (SC_MAX_FRAME_SIZE, old, new) (snd (sacknowledge s0))) :
    upd wf c (cset_streams (cset_max_out_frame c new) (dmapv g (c_streams c)))
| u_out_win_sent n : n <= c_out_win c -> upd wf c (cset_out_win c (c_out_win c - n))
| u_out_win_opened inc : wf (RWindowUpdate 0 inc) -> c_out_win c + inc <= LARGEST_FLOW_CONTROL_WINDOW ->
    upd wf c (cset_out_win c (c_out_win c + inc))
| u_inbuf v : Forall (fun e => wf (fst e)) v -> upd wf c (cset_inbuf c v).

(* [pres_inv I handler] from lemma L of FrameConn about the handler and H : every write keeps I *)
Ltac by_writes H L :=
  apply pres_inv_of_keeps; eapply L; unfold imp; intros;
  first [ assumption | exact Logic.I | eapply H; [econstructor; eassumption | assumption] | solve [eauto 3] ].

(* the same for any computation written with the primitives.  [walk_with refl trans leaf]: the goal is [keeps R m]; refl and trans
   prove that R is a preorder; [leaf L] closes [keeps R p] for the primitive or handler p that lemma L of FrameConn is about.
   As in FrameConn's [prim], [lift_local (supdate _)] must come before [lift_local _]. *)
Ltac walk_with refl trans leaf :=
  repeat first [ keeps_step refl trans | lazymatch goal with
  | |- keeps _ (cfsm _) => leaf k_cfsm
  | |- keeps _ (prepare_for_sending _) => leaf k_prepare
  | |- keeps _ (with_stream _ _) => leaf k_with_stream
  | |- keeps _ (for_streams _) => leaf k_for_streams
  | |- keeps _ (open_streams _) => leaf k_open_streams
  | |- keeps _ open_outbound_streams => leaf k_open_outbound
  | |- keeps _ open_inbound_streams => leaf k_open_inbound
  | |- keeps _ (begin_new_stream _ _) => leaf k_begin_new_stream
  | |- keeps _ (get_or_create_stream _ _) => leaf k_get_or_create
  | |- keeps _ (get_stream_by_id _) => leaf k_get_stream_by_id
  | |- keeps _ (local_flow_control_window _) => leaf k_local_flow_control_window
  | |- keeps _ (lift_cwm _) => leaf k_lift_cwm
  | |- keeps _ (lift_local (supdate _)) => leaf k_local_update
  | |- keeps _ (lift_remote (supdate _)) => leaf k_remote_update
  | |- keeps _ (lift_local _) => leaf k_local_ack
  | |- keeps _ (lift_remote _) => leaf k_remote_ack
  | |- keeps _ (log_enc _) => leaf k_log_enc
  | |- keeps _ (decode_headers _) => leaf k_decode_headers
  | |- keeps _ local_settings_acked => leaf k_local_settings_acked
  | |- keeps _ acknowledge_settings => leaf k_acknowledge_settings
  | |- keeps _ (recv_priority _ _) => leaf k_recv_priority
  | |- keeps _ (recv_settings _ _) => leaf k_recv_settings
  | |- keeps _ initiate_connection => leaf k_initiate_connection
  | |- keeps _ (fun c => let '(_, _) := with_stream _ (receive_push_promise_in_band _ _ _) c in _) => leaf k_push_promise_tail
  end ].
(* for a projection P of fields the computation does not write *)
Ltac unread_walk :=
  lazymatch goal with |- keeps (peq ?P) _ => walk_with (peq_refl P) (peq_trans P) ltac:(fun L => apply L; unread) end.
(* for an invariant that every write keeps (H) *)
Ltac walk H :=
  lazymatch goal with |- pres_inv ?I _ =>
    apply pres_inv_of_keeps;
    walk_with (imp_refl I) (imp_trans I) ltac:(fun L => apply keeps_of_pres_inv; by_writes H L);
    try (apply keeps_modify; intros ? ?; eapply H; [econstructor | assumption])
  end.

Section Stable.
Variable I : conn -> Prop.
Variable wf : rframe -> Prop.
Hypothesis I_wf : forall c, I c -> Forall (fun e => wf (fst e)) (c_inbuf c).
Hypothesis I_upd : forall c c', upd wf c c' -> I c -> I c'.

Lemma upd_receive_frame f : wf f -> pres_inv I (receive_frame f).
Proof. intros Hf. by_writes I_upd k_receive_frame. Qed.
Lemma upd_terminate code : pres_inv I (terminate_connection code).
Proof. by_writes I_upd k_terminate_connection. Qed.

Lemma upd_recv_one fb c c1 r keep : wf (fst fb) -> I c -> recv_one fb c = (c1, r, keep) -> I c1.
Proof. exact (recv_one_inv I wf upd_terminate (guard_of_frame I wf upd_terminate upd_receive_frame) fb c c1 r keep). Qed.

Lemma upd_op o : match o with OReceive _ => False | _ => True end -> pres_inv I (fun c => step c o).
Proof. intros Ho. by_writes I_upd k_op. Qed.
Lemma upd_step c o c' r : I c -> wf_op wf o -> step c o = (c', r) -> I c'.
Proof.
  intros Hc Hw H. pose proof (upd_op o) as K. destruct o; try exact (K Logic.I _ _ _ Hc H).
  destruct (step_receive _ _ _ _ H) as [r1 E].
  exact (api_receive_inv I wf I_wf (fun c0 v H0 Hv => I_upd _ _ (u_inbuf wf c0 v Hv) H0) upd_receive_frame upd_terminate fs c c' r1 Hc Hw E).
Qed.

Theorem run_upd os : forall c, I c -> Forall (wf_op wf) os -> I (run c os).
Proof. exact (run_steps I (wf_op wf) upd_step os). Qed.
End Stable.

Lemma any_ops os : Forall (wf_op (fun _ => True)) os.
Proof. apply Forall_forall. intros [] _; cbn; auto. apply Forall_True. Qed.

Theorem run_upd_all (I : conn -> Prop) :
  (forall c c', upd (fun _ => True) c c' -> I c -> I c') -> forall os c, I c -> I (run c os).
Proof.
  intros H os c Hc. apply (run_upd I (fun _ => True)); [|exact H|exact Hc|apply any_ops].
  intros c0 _. apply Forall_True.
Qed.

Theorem run_keeps (R : conn -> conn -> Prop) :
  (forall c, R c c) -> (forall a b c, R a b -> R b c -> R a c) -> (forall c c', upd (fun _ => True) c c' -> R c c') ->
  forall os c, R c (run c os).
Proof. intros Hr Ht Hu os c. apply (run_upd_all (R c)); [|apply Hr]. intros a b Hab Ha. exact (Ht _ _ _ Ha (Hu _ _ Hab)). Qed.
