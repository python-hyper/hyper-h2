(* one endpoint's output frames as the other endpoint's input frames, and the closed form of a
   received GOAWAY.  The stateful composition (HEADERS / DATA / PUSH_PROMISE across the two stream tables) is
   exercised on two real connected endpoints by harness/twoend.py. *)
From H2 Require Import Base.Prelude Model.FsmTypes Model.Types Model.ConnState Model.Connection Proofs.ConnPrims.

(* the wire, abstractly: what the peer's frame buffer hands to its connection for a frame we emitted
   (header blocks: the frame carrying the whole block; hyperframe's encoding itself is outside the model) *)
Definition to_r (f : frame) : option rframe :=
  match f with
  | FHeaders sid es true p hs _ => Some (RHeaders sid es p (HDecoded hs))
  | FPushPromise sid promised true hs _ => Some (RPushPromise sid promised (HDecoded hs))
  | FData sid len es pad => Some (RData sid len (len + match pad with Some p => p + 1 | None => 0 end) es)
  | FSettings ack vals => Some (RSettings ack vals)
  | FWindowUpdate sid inc => Some (RWindowUpdate sid inc)
  | FPing ack pl => Some (RPing ack pl)
  | FRstStream sid code => Some (RRstStream sid code)
  | FPriority sid p => Some (RPriority sid p)
  | FGoAway last code dbg => Some (RGoAway last code dbg)
  | FAltSvc sid o fl => Some (RAltSvc sid o fl)
  | _ => None
  end.

(* a received GOAWAY is accepted in every state: it is reported as ConnectionTerminated with the frame's fields, the connection
   is closed and what was waiting to be sent is dropped *)
Theorem recv_goaway_closed_form last code dbg c :
  recv_goaway last code dbg c = (cset_out (cset_state c C_CLOSED) [], Ok ([], [EConnectionTerminated code last dbg])).
Proof. unfold recv_goaway. rewrite (bind_ok_eq _ _ _ _ _ (cfsm_goaway _ c (or_intror eq_refl))). reflexivity. Qed.
