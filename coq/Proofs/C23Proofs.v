From H2 Require Import Base.Prelude Model.FsmTypes Gen.Tables Gen.Guards Model.Types Model.StreamFSM Model.ConnState
  Model.Connection Proofs.ConnPrims.

(* _add_frame_priority: accepted iff weight (when given) is in 1..256 and the stream does not depend on itself *)
Definition prio_args_ok (sid : Z) (w d : option Z) : Prop :=
  (match w with Some x => 1 <= x <= 256 | None => True end) /\ (match d with Some dep => dep <> sid | None => True end).

Lemma add_frame_priority_accepts sid w d e :
  prio_args_ok sid w d ->
  add_frame_priority sid w d e =
  Ok (match d with Some dep => dep | None => 0 end, match w with Some x => x - 1 | None => 15 end,
      match e with Some b => b | None => false end).
Proof.
  intros [Hw Hd]. unfold add_frame_priority, g_prio_self, g_prio_weight.
  destruct d as [dep|]; destruct w as [x|]; cbn [opt_default];
    repeat match goal with |- context [if ?b then _ else _] => let E := fresh in destruct b eqn:E; try lia end;
    reflexivity.
Qed.

Lemma add_frame_priority_rejects sid w d e :
  ~ prio_args_ok sid w d -> add_frame_priority sid w d e = perr.
Proof.
  intros Hn. unfold add_frame_priority, g_prio_self, g_prio_weight, prio_args_ok in *.
  destruct d as [dep|]; destruct w as [x|]; cbn [opt_default];
    repeat match goal with |- context [if ?b then _ else _] => let E := fresh in destruct b eqn:E end;
    try reflexivity; exfalso; apply Hn; split; try exact Logic.I; lia.
Qed.

(* _receive_priority_frame: the event reports the weight byte + 1 *)
Lemma recv_priority_open sid dep w ex c : c_state c <> C_CLOSED ->
  recv_priority sid (dep, w, ex) c = (c, if dep =? sid then perr else Ok [EPriorityUpdated sid (w + 1) dep ex]).
Proof.
  intros Ho. unfold recv_priority, g_recv_prio_self. rewrite (bind_ok_eq _ _ _ _ _ (cfsm_housekeeping CI_RECV_PRIORITY c eq_refl Ho)).
  destruct (dep =? sid); reflexivity.
Qed.

Lemma priority_accepted_unless_closed c : conn_transition (c_state c) CI_RECV_PRIORITY <> None -> c_state c <> C_CLOSED.
Proof. intros H E. exact (H (proj2 (housekeeping_refused CI_RECV_PRIORITY _ eq_refl) E)). Qed.

Lemma recv_priority_state_unchanged sid p c c' r : c_state c <> C_CLOSED -> recv_priority sid p c = (c', r) -> c' = c.
Proof. destruct p as [[dep w] ex]. intros Ho. rewrite recv_priority_open by exact Ho. congruence. Qed.

(* what the peer reports for the wire fields (depends_on, weight byte, exclusive): round trip *)
Lemma priority_round_trip sid w d e c :
  prio_args_ok sid w d -> sid <> 0 -> conn_transition (c_state c) CI_RECV_PRIORITY <> None ->
  forall p, add_frame_priority sid w d e = Ok p ->
  snd (recv_priority sid p c) =
  Ok [EPriorityUpdated sid (match w with Some x => x | None => 16 end) (match d with Some dep => dep | None => 0 end)
                       (match e with Some b => b | None => false end)].
Proof.
  intros Hok Hs0 Ht p Hp. rewrite (add_frame_priority_accepts sid w d e Hok) in Hp. injection Hp as <-.
  rewrite recv_priority_open by exact (priority_accepted_unless_closed c Ht). cbn [snd]. destruct Hok as [Hw Hd].
  replace (_ =? sid) with false by (destruct d; lia). destruct w as [x|]; [replace (x - 1 + 1) with x by lia|]; reflexivity.
Qed.
