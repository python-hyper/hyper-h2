(* what the HPACK encoder consumes against what goes on the wire.
   The encoder is an external library; the model records, per call, the header list handed to Encoder.encode up to the point
   where a lazily evaluated validator raised ("consumed"): the compression context after the call is a function of the
   sequence of consumed lists, the peer's context a function of the sequence of emitted blocks. *)
From H2 Require Import Base.Prelude Model.FsmTypes Model.Types Model.StreamFSM Model.Headers Model.Stream
  Proofs.C02Proofs.

Definition block_of (fs : list frame) : option (list hitem) :=
  match fs with
  | FHeaders _ _ _ _ h _ :: _ => Some h
  | FPushPromise _ _ _ h _ :: _ => Some h
  | _ => None
  end.

(* a send_headers call that returns normally: exactly one list was handed to the encoder, it is the list the emitted block
   carries, and it is the output of the normalisation / validation pipeline for the whole input *)
Theorem send_headers_success_is_synchronised cfg hs L es s s' frames e :
  send_headers cfg hs L es s = (s', (Ok frames, e)) ->
  exists consumed f, e = Some consumed /\ block_of frames = Some consumed /\ outbound_pipeline cfg f hs = (consumed, PAll).
Proof.
  unfold send_headers. set (info := negb (s_client s) && is_informational_response (plain hs)).
  destruct (info && es); [discriminate|].
  destruct (fsm _ s) as [s1 [evs| |]]; try discriminate.
  destruct (build_flags evs) as [f| |]; try discriminate.
  destruct (build_headers_frames cfg f hs L _ s1) as [consumed rf] eqn:B.
  destruct rf as [frames0| |]; try discriminate.
  destruct (if es then fsm SI_SEND_END_STREAM s1 else (s1, Ok [])) as [s2 [u| |]]; try discriminate.
  destruct (sm_ts (s_sm s2) && negb es); [discriminate|].
  intros H. injection H as _ <- <-. exists consumed, f.
  destruct (build_shape _ _ _ _ _ _ _ _ B) as (Hp & c & [-> | (c2 & l & ->)]); destruct es; auto.
Qed.
