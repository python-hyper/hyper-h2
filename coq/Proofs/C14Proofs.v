(* field_ok of Spec/Rfc812.v split into spelling and meaning (validate_outbound_headers does not check spelling: that is
   normalisation's part; the inbound step is the spelling check followed by the outbound step, Proofs/C15Proofs.v), and
   what lower / strip guarantee for every byte string. *)
From H2 Require Import Base.Prelude Gen.Consts Gen.Guards Model.Types Model.Headers Spec.Rfc812.

(* the part of field_ok that is about the meaning of a field, not its spelling *)
Definition sem_ok (k : block) (n v : bytes) : bool :=
  negb (is_in n connection_specific) &&
  negb (bytes_eqb n s_te && negb (bytes_eqb (map low v) s_trailers)) &&
  negb (match k with Request => bytes_eqb n s_path && (match v with [] => true | _ => false end) | _ => false end).
Definition spelled_ok (n v : bytes) : bool :=
  negb (match n with [] => true | _ => false end) && negb (existsb upper n) && no_surrounding_ws n && no_surrounding_ws v.

Lemma field_ok_split k n v : field_ok k n v = spelled_ok n v && sem_ok k n v.
Proof. unfold field_ok, spelled_ok, sem_ok. rewrite !andb_assoc. reflexivity. Qed.

(* the whole-list predicate without the spelling conditions *)
Definition conformant_sem (k : block) (hs : list hitem) : bool :=
  forallb (fun h => sem_ok k (fst (fst h)) (snd (fst h))) hs &&
  pseudo_first (names hs) && no_dup (pseudo_names hs) && forallb (fun p => is_in p known_pseudo) (pseudo_names hs) && role_ok k hs.

Lemma low_not_upper c : upper (low c) = false.
Proof. unfold low, upper. destruct ((65 <=? c) && (c <=? 90)) eqn:E; [|exact E]. lia. Qed.
Lemma lower_has_no_upper b : existsb upper (lower b) = false.
Proof. unfold lower. induction b as [|c b IH]; [reflexivity|]. cbn [map existsb]. change (lower_byte c) with (low c). rewrite low_not_upper, IH. reflexivity. Qed.

Lemma lstrip_head b : match lstrip b with [] => True | c :: _ => ws c = false end.
Proof. induction b as [|c b IH]; cbn [lstrip]; [exact I|]. change (is_ws c) with (ws c). destruct (ws c) eqn:E; [exact IH | exact E]. Qed.
Lemma lstrip_suffix b : exists pre, b = pre ++ lstrip b.
Proof. induction b as [|c b [pre IH]]; [exists []; reflexivity|]. cbn [lstrip]. destruct (is_ws c); [exists (c :: pre); cbn; rewrite <- IH; reflexivity | exists []; reflexivity]. Qed.
Lemma existsb_rev {A} (p : A -> bool) l : existsb p (rev l) = existsb p l.
Proof. induction l as [|y l IH]; [reflexivity|]. cbn [rev]. rewrite existsb_app, IH. cbn. rewrite orb_false_r. apply orb_comm. Qed.
(* strip keeps a sublist *)
Lemma strip_keeps_none (p : Z -> bool) b : existsb p b = false -> existsb p (strip b) = false.
Proof.
  assert (L : forall x, existsb p x = false -> existsb p (lstrip x) = false).
  { intros x. destruct (lstrip_suffix x) as [pre E]. rewrite E at 1. rewrite existsb_app. intros H. apply orb_false_iff in H. apply H. }
  intros H. unfold strip. rewrite existsb_rev. apply L. rewrite existsb_rev. apply L. exact H.
Qed.
Lemma last_app_nonempty {A} (a b : list A) d : b <> [] -> last (a ++ b) d = last b d.
Proof.
  intros Hb. induction a as [|x a IH]; [reflexivity|]. cbn [app last].
  destruct (a ++ b) eqn:E; [destruct a; [contradiction | discriminate] | exact IH].
Qed.

Lemma strip_no_surrounding_ws b : no_surrounding_ws (strip b) = true.
Proof.
  unfold strip, no_surrounding_ws.
  set (m := lstrip b). set (r := lstrip (rev m)).
  destruct (rev r) as [|c t] eqn:Er; [reflexivity|].
  (* last of rev r = head of r: not whitespace *)
  assert (Hlast : ws (last (c :: t) 0) = false).
  { rewrite <- Er. pose proof (lstrip_head (rev m)) as Hh. fold r in Hh. destruct r as [|x r0]; [discriminate|]. cbn [rev]. rewrite last_last. exact Hh. }
  (* head of rev r: r is a suffix of rev m, so rev r is a prefix of m, whose head is not whitespace *)
  assert (Hhead : ws c = false).
  { destruct (lstrip_suffix (rev m)) as [pre Hp]. fold r in Hp.
    assert (Hm : m = rev r ++ rev pre) by (rewrite <- rev_app_distr, <- Hp, rev_involutive; reflexivity).
    pose proof (lstrip_head b) as Hb. fold m in Hb. rewrite Hm, Er in Hb. exact Hb. }
  rewrite Hhead, Hlast. reflexivity.
Qed.

(* authorization, proxy-authorization and short cookies leave never-indexed *)
Definition sensitive (n v : bytes) : bool :=
  is_in n [[97;117;116;104;111;114;105;122;97;116;105;111;110]; [112;114;111;120;121;45;97;117;116;104;111;114;105;122;97;116;105;111;110]] ||
  (bytes_eqb n [99;111;111;107;105;101] && (zlen v <? 20)).

Lemma secure_eq n v ni : secure (n, v, ni) = (n, v, sensitive n v || ni).
Proof.
  unfold secure, sensitive, g_secure_cookie, mem_bytes, is_in, SECURE_HEADERS, b_cookie.
  destruct (existsb _ _); [reflexivity|]. destruct (bytes_eqb n _ && _); reflexivity.
Qed.
