From H2 Require Import Base.Prelude Base.PyDict Gen.Consts Gen.Guards Model.Types Model.Stream Model.ConnState
  Model.Connection Proofs.InvTac.

Definition closed_bounded (c : conn) : Prop := zlen (c_closed c) <= MAX_CLOSED_STREAMS.

Lemma MAX_CLOSED_nonneg : 0 <= MAX_CLOSED_STREAMS. Proof. vm_compute. discriminate. Qed.

Lemma closed_insert_bounded sid cb d : zlen (closed_insert sid cb d) <= MAX_CLOSED_STREAMS.
Proof.
  unfold closed_insert, g_closed_limit. pose proof (length_dset_le sid cb d) as Hl. pose proof MAX_CLOSED_nonneg as Hp.
  destruct (zlen (dset sid cb d) >? MAX_CLOSED_STREAMS) eqn:E; [|lia].
  unfold zlen in *. rewrite length_drop_oldest. lia.
Qed.

Lemma fold_closed_insert_bounded (dead : dict stream) : forall d,
  zlen d <= MAX_CLOSED_STREAMS ->
  zlen (fold_left (fun d kv => closed_insert (fst kv) (s_closed_by (snd kv)) d) dead d) <= MAX_CLOSED_STREAMS.
Proof.
  induction dead as [|kv dead IH]; intros d H; cbn [fold_left]; [exact H|].
  apply IH, closed_insert_bounded.
Qed.

(* the only write to the table of closed streams is the reaping of open_streams, one capped insertion per dead stream *)
Theorem closed_streams_memory_bounded os : forall c, closed_bounded c -> closed_bounded (run c os).
Proof.
  apply run_upd_all. intros c c' [] Hc; try exact Hc.
  unfold closed_bounded in *. cbn [open_streams fst c_closed cset_closed]. apply fold_closed_insert_bounded. exact Hc.
Qed.

Lemma closed_bounded_init cfg : closed_bounded (conn_new cfg).
Proof. unfold closed_bounded, conn_new. cbn [c_closed]. vm_compute. discriminate. Qed.
