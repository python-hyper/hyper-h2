(* Over EVERY history of calls and received frames: the peer's MAX_FRAME_SIZE in force is at least 2^14, and every
   value ever queued for the peer's settings passed validation.  Consequence: the size assertion of _prepare_for_sending can never
   fire for the fixed-size frames the library emits on its own (SETTINGS ACK, PING ACK, WINDOW_UPDATE, RST_STREAM, GOAWAY). *)
From H2 Require Import Base.Prelude Base.PyDict Gen.Consts Model.Types Model.SettingsV Model.Settings Model.ConnState
  Model.Connection Proofs.C11Proofs Proofs.FrameConn Proofs.Inv Proofs.InvTac.

Definition entry_ok (k : Z) (q : list (option Z)) : Prop :=
  Forall (fun o => match o with Some v => validate_setting k v = 0 | None => True end) q.
Definition sval_ok (s : settings) : Prop := forall k q, In (k, q) s -> entry_ok k q.

Lemma ssetitem_ok k v s s' r : sval_ok s -> ssetitem k v s = (s', r) -> sval_ok s'.
Proof.
  intros Hs. unfold ssetitem. destruct (negb (validate_setting k v =? 0)) eqn:E; intros H; injection H as <- _; [exact Hs|].
  apply negb_false_iff, Z.eqb_eq in E. intros k' q' Hin. apply In_dset in Hin as [[-> ->]|Hin]; [|exact (Hs _ _ Hin)].
  apply Forall_app. split; [|repeat constructor; exact E].
  destruct (dget k s) as [q|] eqn:Eg; [exact (Hs _ _ (dget_In _ _ _ Eg)) | repeat constructor].
Qed.
Lemma supdate_ok kvs : forall s s' r, sval_ok s -> supdate kvs s = (s', r) -> sval_ok s'.
Proof.
  induction kvs as [|[k v] kvs IH]; intros s s' r Hs; cbn [supdate]; [intros H; injection H as <- _; exact Hs|].
  destruct (ssetitem k v s) as [s1 r1] eqn:E. pose proof (ssetitem_ok _ _ _ _ _ Hs E) as H1.
  destruct r1; [apply IH; exact H1 | intros H; injection H as <- _; exact H1 | intros H; injection H as <- _; exact H1].
Qed.

(* a value an acknowledgement reports as new is the head of its queue afterwards *)
Lemma acknowledged_ok s : sval_ok (fst (sacknowledge s)) ->
  forall k old new, In (k, old, new) (snd (sacknowledge s)) -> validate_setting k new = 0.
Proof.
  rewrite sacknowledge_eq. cbn [fst snd]. intros Hs k old new Hin. apply in_flat_map in Hin as ([k0 q] & Hin & Hc).
  specialize (Hs k0 _ (in_map _ _ _ Hin)). cbn [fst snd ackq] in *.
  destruct q as [|o [|[n|] q2]]; try contradiction Hc. destruct Hc as [Hc|[]]. injection Hc as <- _ <-. inversion Hs. assumption.
Qed.

Lemma sacknowledge_ok s : sval_ok s ->
  sval_ok (fst (sacknowledge s)) /\ (forall k old new, In (k, old, new) (snd (sacknowledge s)) -> validate_setting k new = 0).
Proof.
  intros Hs. assert (A : sval_ok (fst (sacknowledge s))); [|exact (conj A (acknowledged_ok s A))].
  rewrite sacknowledge_eq. intros k q' Hin. apply in_map_iff in Hin as ([k0 q] & E & Hin). apply Hs in Hin. injection E as <- <-.
  destruct q as [|o [|x q2]]; try exact Hin. inversion Hin. assumption.
Qed.

Lemma valid_frame_size v : validate_setting SC_MAX_FRAME_SIZE v = 0 -> 16384 <= v.
Proof.
  unfold validate_setting. change (SC_MAX_FRAME_SIZE =? SC_ENABLE_PUSH) with false.
  change (SC_MAX_FRAME_SIZE =? SC_INITIAL_WINDOW_SIZE) with false. change (SC_MAX_FRAME_SIZE =? SC_MAX_FRAME_SIZE) with true.
  cbv iota. destruct ((16384 <=? v) && (v <=? 16777215)) eqn:B; [lia | discriminate].
Qed.

Lemma defaults_ok b : sval_ok (settings_defaults b).
Proof. destruct b; intros k q Hin; cbn in Hin; repeat (destruct Hin as [Hin|Hin]; [injection Hin as <- <-; repeat constructor|]); destruct Hin. Qed.

(* a predicate [Q] of the projection [P]: a write to any other field leaves the hypothesis up to computation *)
Definition P (c : conn) : Z * settings := (c_max_out_frame c, c_remote c).
Definition Q (x : Z * settings) : Prop := 16384 <= fst x /\ sval_ok (snd x).
Definition mfs_inv (c : conn) : Prop := Q (P c).

Lemma mfs_init cfg : mfs_inv (conn_new cfg).
Proof.
  unfold mfs_inv, Q, P, conn_new. cbn [c_max_out_frame c_remote fst snd]. unfold settings_new. cbn [settings_init_values fst].
  split; [destruct (cfg_client cfg); vm_compute; discriminate | apply defaults_ok].
Qed.

(* the writes that touch the projection: the two to the peer's settings, and the frame size limit itself *)
Lemma mfs_upd c c' : upd (fun _ => True) c c' -> mfs_inv c -> mfs_inv c'.
Proof.
  intros [] Hc; try exact Hc; destruct Hc as [Hm Hs]; (split; [try exact Hm | try exact Hs]); cbn [P snd fst c_remote c_max_out_frame cset_remote cset_streams cset_max_out_frame] in *.
  - destruct (supdate kvs (c_remote c)) eqn:E. exact (supdate_ok _ _ _ _ Hs E).
  - exact (proj1 (sacknowledge_ok _ Hs)).
  - (* [new] stays at the head of its queue in the acknowledged settings, all of whose values are valid *)
    rewrite Hacked in Hs. exact (valid_frame_size new (acknowledged_ok s0 Hs _ _ _ Hnew)).
Qed.

Lemma inv_lift_remote_update kvs : pres_inv mfs_inv (lift_remote (supdate kvs)).
Proof. by_writes mfs_upd k_remote_update. Qed.
Lemma inv_acknowledge_settings : pres_inv mfs_inv acknowledge_settings.
Proof. by_writes mfs_upd k_acknowledge_settings. Qed.
Lemma inv_recv_settings ack vals : pres_inv mfs_inv (recv_settings ack vals).
Proof. by_writes mfs_upd k_recv_settings. Qed.
Lemma inv_dispatch f : pres_inv mfs_inv (dispatch f).
Proof. by_writes mfs_upd k_dispatch. Qed.
Lemma inv_receive_frame f : pres_inv mfs_inv (receive_frame f).
Proof. exact (upd_receive_frame mfs_inv _ mfs_upd f Logic.I). Qed.

Theorem peer_frame_size_limit_is_never_below_the_minimum os : forall c, mfs_inv c -> mfs_inv (run c os).
Proof. exact (run_upd_all mfs_inv mfs_upd os). Qed.

Corollary frame_size_limit_after_any_history cfg os : 16384 <= c_max_out_frame (run (conn_new cfg) os).
Proof. exact (proj1 (peer_frame_size_limit_is_never_below_the_minimum os _ (mfs_init cfg))). Qed.
