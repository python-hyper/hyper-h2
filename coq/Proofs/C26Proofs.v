From H2 Require Import Base.Prelude Model.FsmTypes Gen.Guards Model.Types Model.ConnState Model.Connection
  Proofs.ConnPrims.

Definition state_open (c : conn) : Prop := c_state c <> C_CLOSED.

(* one received PING on a connection that is not closed: exactly one ACK with the same payload is
   appended (none for an ACK), exactly one event, and nothing else in the state changes *)
Lemma receive_ping_frame ack pl c :
  state_open c -> 8 <= c_max_out_frame c ->
  receive_frame (RPing ack pl) c =
  (cset_out c (c_out c ++ (if ack then [] else [FPing true pl])),
   Ok [if ack then EPingAckReceived pl else EPingReceived pl]).
Proof.
  intros Ho Hm. unfold receive_frame. cbn [dispatch]. unfold recv_ping.
  rewrite (bind_ok_eq _ _ _ _ _ (cfsm_housekeeping CI_RECV_PING c eq_refl Ho)).
  destruct ack; cbn [ret].
  - rewrite (bind_ok_eq _ _ _ _ _ (prepare_ok [] c eq_refl)). reflexivity.
  - rewrite (bind_ok_eq _ _ _ _ _ (prepare_ok [FPing true pl] c ltac:(cbn; lia))). reflexivity.
Qed.

Lemma api_ping_ok pl c :
  zlen pl = 8 -> state_open c -> 8 <= c_max_out_frame c ->
  api_ping pl c = (cset_out c (c_out c ++ [FPing false pl]), Ok tt).
Proof.
  intros Hl Ho Hm. unfold api_ping, g_ping_len. rewrite Hl. cbn [negb orb Z.eqb Pos.eqb].
  rewrite bind_ret, (bind_ok_eq _ _ _ _ _ (cfsm_housekeeping CI_SEND_PING c eq_refl Ho)).
  apply prepare_ok. cbn. lia.
Qed.
