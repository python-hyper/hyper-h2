(* Frame conditions as relations between the state before and the state after a run: for a preorder R, [keeps R] is closed
   under the monad's operations.  [preserves P m] is [keeps (peq P) m] up to conversion; an invariant I is kept when
   [keeps (imp I) m]. *)
From H2 Require Import Base.Prelude Model.Types Model.ConnState Model.Connection.

Section Preserves.
Context {T : Type} (P : conn -> T).

Definition preserves {A} (m : CM A) : Prop := forall c c' r, m c = (c', r) -> P c' = P c.

Lemma pres_put_eq c0 : forall c, P c0 = P c -> forall c' r, put c0 c = (c', r) -> P c' = P c.
Proof. intros c He c' r H. unfold put in H. injection H as <- _. exact He. Qed.

Lemma pres_if {A} (b : bool) (m1 m2 : CM A) : preserves m1 -> preserves m2 -> preserves (if b then m1 else m2).
Proof. destruct b; auto. Qed.
End Preserves.

Section Keeps.
Variable R : conn -> conn -> Prop.
Hypothesis R_refl : forall c, R c c.
Hypothesis R_trans : forall a b c, R a b -> R b c -> R a c.

Definition keeps {A} (m : CM A) : Prop := forall c c' r, m c = (c', r) -> R c c'.

Lemma keeps_fst {A} (m : CM A) : (forall c, R c (fst (m c))) -> keeps m.
Proof. intros W c c' r H. specialize (W c). rewrite H in W. exact W. Qed.
Lemma keeps_at {A} (m : CM A) : keeps m -> forall c, R c (fst (m c)).
Proof. intros H c. destruct (m c) as [c' r] eqn:E. exact (H _ _ _ E). Qed.
Lemma keeps_pure {A} (m : CM A) : (forall c, fst (m c) = c) -> keeps m.
Proof. intros E. apply keeps_fst. intros c. rewrite E. apply R_refl. Qed.

Lemma keeps_bind {A B} (m : CM A) (k : A -> CM B) : keeps m -> (forall a, keeps (k a)) -> keeps (bind m k).
Proof.
  intros Hm Hk c c' r H. unfold bind in H. destruct (m c) as [c1 r1] eqn:E.
  pose proof (Hm _ _ _ E) as H1. destruct r1 as [a|e co i b|p].
  - exact (R_trans _ _ _ H1 (Hk a _ _ _ H)).
  - injection H as <- _. exact H1.
  - injection H as <- _. exact H1.
Qed.
Lemma bind_split {A B} (m : CM A) (k : A -> CM B) c0 c c' r :
  R c0 c -> keeps m -> bind m k c = (c', r) -> R c0 c' \/ exists c1 a, R c0 c1 /\ k a c1 = (c', r).
Proof.
  intros H0 Hm H. unfold bind in H. destruct (m c) as [c1 r1] eqn:E. pose proof (R_trans _ _ _ H0 (Hm _ _ _ E)) as H1.
  destruct r1 as [a|e co i b|p]; [right; eauto | left; injection H as <- _; exact H1 | left; injection H as <- _; exact H1].
Qed.
Lemma keeps_modify (f : conn -> conn) : (forall c, R c (f c)) -> keeps (modify f).
Proof. exact (keeps_fst (modify f)). Qed.

(* a computation followed by a continuation that is not written with [bind] (the handlers that catch an exception) *)
Lemma keeps_then {A B} (m : CM A) (k : conn -> res A -> conn * res B) :
  keeps m -> (forall c r, R c (fst (k c r))) -> keeps (fun c => let '(c1, r) := m c in k c1 r).
Proof. intros Hm Hk. apply keeps_fst. intros c. destruct (m c) as [c1 r1] eqn:E. exact (R_trans _ _ _ (Hm _ _ _ E) (Hk c1 r1)). Qed.
End Keeps.

Ltac keeps_step refl trans :=
  lazymatch goal with
  | |- keeps _ (bind _ _) => apply (keeps_bind _ trans); [|intros ?]
  | |- keeps _ (ret _) => apply (keeps_pure _ refl); intros; reflexivity
  | |- keeps _ (fail _ _ _ _) => apply (keeps_pure _ refl); intros; reflexivity
  | |- keeps _ (crash _) => apply (keeps_pure _ refl); intros; reflexivity
  | |- keeps _ (lift_res _) => apply (keeps_pure _ refl); intros; reflexivity
  | |- keeps _ get => apply (keeps_pure _ refl); intros; reflexivity
  | |- keeps _ (when _ _) => unfold when
  | |- keeps _ (match ?x with _ => _ end) => destruct x
  end.

Definition peq {T} (P : conn -> T) (c c' : conn) : Prop := P c' = P c.
Definition imp (I : conn -> Prop) (c c' : conn) : Prop := I c -> I c'.

Lemma peq_refl {T} (P : conn -> T) c : peq P c c.
Proof. reflexivity. Qed.
Lemma peq_trans {T} (P : conn -> T) a b c : peq P a b -> peq P b c -> peq P a c.
Proof. unfold peq. congruence. Qed.
Lemma imp_refl (I : conn -> Prop) c : imp I c c.
Proof. exact (fun H => H). Qed.
Lemma imp_trans (I : conn -> Prop) a b c : imp I a b -> imp I b c -> imp I a c.
Proof. exact (fun H1 H2 H => H2 (H1 H)). Qed.
