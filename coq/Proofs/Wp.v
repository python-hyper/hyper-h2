(* One program logic for the state+exception monad [M S A] of Model/Types.v, for every state type S (streams and connections). *)
From H2 Require Import Base.Prelude Model.Types.

Section Wp.
Context {S : Type}.

Definition wp {A} (m : M S A) (Q : A -> S -> Prop) (E X : S -> Prop) (s : S) : Prop :=
  match m s with (s', Ok a) => Q a s' | (s', Err _ _ _ _) => E s' | (s', Crash _) => X s' end.

Lemma wp_bind {A B} (m : M S A) (k : A -> M S B) Q E X s :
  wp m (fun a => wp (k a) Q E X) E X s -> wp (bind m k) Q E X s.
Proof. unfold wp, bind. destruct (m s) as [s1 [a|e c i b|p]]; auto. Qed.

Lemma wp_mono {A} (m : M S A) (Q Q' : A -> S -> Prop) E X s :
  wp m Q E X s -> (forall a s', Q a s' -> Q' a s') -> wp m Q' E X s.
Proof. unfold wp. destruct (m s) as [s1 [a|e c i b|p]]; auto. Qed.

Lemma wp_seq {A B} (m : M S A) (k : A -> M S B) Q R E X s :
  wp m Q E X s -> (forall a s', Q a s' -> wp (k a) R E X s') -> wp (bind m k) R E X s.
Proof. intros Hm Hk. apply wp_bind. exact (wp_mono _ _ _ _ _ _ Hm Hk). Qed.

Lemma wp_ret {A} (a : A) (Q : A -> S -> Prop) E X s : Q a s -> wp (ret a) Q E X s.
Proof. exact (fun H => H). Qed.
Lemma wp_get (Q : S -> S -> Prop) E X s : Q s s -> wp get Q E X s.
Proof. exact (fun H => H). Qed.

Lemma wp_run {A} (m : M S A) Q E X s s' r :
  wp m Q E X s -> m s = (s', r) -> match r with Ok a => Q a s' | Err _ _ _ _ => E s' | Crash _ => X s' end.
Proof. unfold wp. intros H Eq. rewrite Eq in H. exact H. Qed.
End Wp.

Definition nc {S A} (m : M S A) (Q : A -> S -> Prop) : S -> Prop := wp m Q (fun _ => True) (fun _ => False).

Lemma nc_any {S A} (m : M S A) (Q : A -> S -> Prop) s :
  (forall p, snd (m s) <> Crash p) -> (forall a s', Q a s') -> nc m Q s.
Proof. intros N HQ. unfold nc, wp. destruct (m s) as [s' [a|e c i b|p]]; [apply HQ | exact I | exact (N p eq_refl)]. Qed.
Lemma nc_then {S A B} (m : M S A) (k : A -> M S B) R s :
  (forall p, snd (m s) <> Crash p) -> (forall a s', nc (k a) R s') -> nc (bind m k) R s.
Proof. intros N Hk. apply wp_bind, nc_any; assumption. Qed.
Lemma nc_lift {S A} (r : res A) (Q : A -> S -> Prop) s :
  (forall p, r <> Crash p) -> (forall a, r = Ok a -> Q a s) -> nc (lift_res r) Q s.
Proof. intros N HQ. unfold nc, wp, lift_res. destruct r as [a|e c i b|p]; [exact (HQ a eq_refl) | exact I | exact (N p eq_refl)]. Qed.
Lemma nc_run {S A} (m : M S A) Q s s' r : nc m Q s -> m s = (s', r) -> forall p, r <> Crash p.
Proof. intros H E p ->. exact (wp_run _ _ _ _ _ _ _ H E). Qed.
