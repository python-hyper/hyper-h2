(* receive_data raises h2 exceptions only, never a Python one: the end-to-end statement, over every state
   reachable by any history.  Every place of the receive path where the Python code indexes, looks up, asserts or decodes is shown
   unreachable or translated, for every frame; the frame-size invariant (Proofs/MfsInv.v) is needed only where frames are queued. *)
From H2 Require Import Base.Prelude Base.PyDict Gen.Guards Model.Types Model.Windows Model.WmHist
  Model.SettingsV Model.Settings Model.StreamFSM Model.Stream Model.ConnState Model.Connection Proofs.Wp Proofs.ConnPrims Proofs.Inv Proofs.InvTac
  Proofs.MfsInv Proofs.C17Proofs Proofs.C0708Proofs.

Definition ncr {A} (r : res A) : Prop := forall p, r <> Crash p.
Lemma ncr_ok {A} (a : A) : ncr (Ok a). Proof. intros p; discriminate. Qed.
Lemma ncr_err {A} e c i b : ncr (@Err A e c i b). Proof. intros p; discriminate. Qed.
#[local] Hint Resolve ncr_ok ncr_err : core.

Definition smallf (fs : list frame) : bool := forallb (fun f => body_len f <=? 16384) fs.
(* 16384 is the smallest MAX_FRAME_SIZE a peer can impose (Proofs/MfsInv.v), so such frames fit whatever the peer set.
   [fits] is a post-condition for [nc]: the state it ends in does not matter. *)
Definition fits {S} (a : list frame * list event) (_ : S) : Prop := smallf (fst a) = true.

Lemma supdate_ncr kvs : forall s, ncr (snd (supdate kvs s)).
Proof.
  induction kvs as [|[k v] kvs IH]; intros s; cbn [supdate]; [cbn; auto|].
  unfold ssetitem. destruct (negb (validate_setting k v =? 0)); cbn; [auto|apply IH].
Qed.
Lemma guard_ncr a b : ncr (guard_increment_window a b).
Proof. unfold guard_increment_window. destruct (_ >? _); discriminate. Qed.
Lemma inbound_iws_ncr d s : ncr (snd (inbound_iws_change d s)).
Proof. unfold inbound_iws_change, lift_wm, wm_delta, window_opened. destruct (_ >? _); discriminate. Qed.
Lemma sacknowledge_ncr s : ncr (snd (let '(s', ch) := sacknowledge s in (s', Ok ch))).
Proof. destruct (sacknowledge s). discriminate. Qed.
Lemma flow_change_step_ncr old new s :
  ncr (snd (match guard_increment_window (s_out_win s) (new - old) with
            | Ok w => (set_out_win s w, Ok tt) | Err e c i b => (s, Err e c i b) | Crash p => (s, Crash p) end)).
Proof. pose proof (guard_ncr (s_out_win s) (new - old)) as N. destruct (guard_increment_window _ _) as [w|e c i b|p]; [discriminate | discriminate | destruct (N p eq_refl)]. Qed.
Lemma for_streams_ncr (f : stream -> stream * res unit) c : (forall s, ncr (snd (f s))) -> ncr (snd (for_streams f c)).
Proof.
  intros Hf. unfold for_streams.
  match goal with |- context [let '(_, _) := ?g (c_streams c) in _] => set (go := g) end.
  assert (G : forall l, ncr (snd (go l))).
  { induction l as [|[k s] l IH]; cbn; [auto|]. pose proof (Hf s) as N. destruct (f s) as [s' r1]. cbn [snd] in N.
    destruct r1 as [u|e co i b|p]; [destruct (go l) as [r' r2]; exact IH | cbn; auto | exfalso; exact (N p eq_refl)]. }
  specialize (G (c_streams c)). destruct (go (c_streams c)) as [ss r]. exact G.
Qed.

Lemma reset_stream_nc code s : nc (reset_stream code) (fun fs _ => smallf fs = true) s.
Proof. unfold reset_stream. apply wp_bind, fsm_nc. intros m _ _. exact eq_refl. Qed.
Theorem receive_window_update_nc inc s : nc (receive_window_update inc) fits s.
Proof.
  unfold receive_window_update. apply wp_bind, fsm_nc. intros m evs _. apply wp_bind, wp_get.
  destruct evs; [exact eq_refl|].
  destruct (guard_increment_window _ inc); try exact eq_refl; (eapply wp_seq; [apply reset_stream_nc | intros fs s1 Hs; exact Hs]).
Qed.
Theorem stream_reset_nc code s : nc (stream_reset code) (fun _ _ => True) s.
Proof. unfold stream_reset. apply wp_bind, fsm_nc. intros m evs _. destruct evs; exact I. Qed.
Theorem receive_continuation_nc s : nc receive_continuation (fun _ _ => False) s.
Proof. unfold receive_continuation. apply wp_bind, fsm_nc. intros m evs Hp. destruct (process_input_recv _ _ _ _ _ Hp). Qed.
Theorem remotely_pushed_nc hs s : nc (remotely_pushed hs) (fun _ _ => True) s.
Proof. unfold remotely_pushed. apply wp_bind, fsm_nc. intros m evs _. exact I. Qed.

Lemma never_crashes_snd {A} (m : CM A) c : never_crashes m -> forall p, snd (m c) <> Crash p.
Proof. intros N. exact (N c _ _ (surjective_pairing _)). Qed.
Lemma with_stream_nc {A} sid (f : SM A) c s (P : A -> stream -> Prop) (Q : A -> conn -> Prop) :
  dget sid (c_streams c) = Some s -> nc f P s -> (forall a s', P a s' -> Q a (cset_streams c (dset sid s' (c_streams c)))) ->
  nc (with_stream sid f) Q c.
Proof. intros Hs H HQ. unfold nc, wp in *. rewrite (with_stream_some _ _ _ _ Hs). destruct (f s) as [s' [a|e co i b|p]]; [apply HQ, H | exact I | exact H]. Qed.
Lemma get_stream_by_id_nc sid c (Q : stream -> conn -> Prop) :
  (forall s, dget sid (c_streams c) = Some s -> Q s c) -> nc (get_stream_by_id sid) Q c.
Proof.
  intros HQ. unfold nc, wp. rewrite get_stream_by_id_eq. destruct (dget sid (c_streams c)); [exact (HQ _ eq_refl)|].
  unfold lookup_error. destruct (_ >? _); exact I.
Qed.
Lemma lookup_then_nc {A} sid (f : SM A) (Q : A -> Prop) c :
  (forall s, nc f (fun a _ => Q a) s) -> nc (get_stream_by_id sid ;;; with_stream sid f) (fun a _ => Q a) c.
Proof. intros Hf. apply wp_bind, get_stream_by_id_nc. intros s Hs. exact (with_stream_nc sid f c s _ _ Hs (Hf s) (fun _ _ H => H)). Qed.
Lemma begin_new_stream_nc sid a c (Q : unit -> conn -> Prop) :
  (forall c', (exists s, dget sid (c_streams c') = Some s) -> Q tt c') -> nc (begin_new_stream sid a) Q c.
Proof.
  intros HQ. unfold nc, wp. rewrite begin_new_stream_eq. destruct (_ <=? _); [exact I|]. destruct (_ =? _); [|exact I].
  apply HQ. destruct (opened_streams sid c) as [s ->]. exists s. apply dget_dset_same.
Qed.
Lemma get_or_create_nc sid a c (Q : unit -> conn -> Prop) :
  (forall c', (exists s, dget sid (c_streams c') = Some s) -> Q tt c') -> nc (get_or_create_stream sid a) Q c.
Proof.
  intros HQ. unfold get_or_create_stream. apply wp_bind, wp_get. unfold dmem.
  destruct (dget sid (c_streams c)) as [s|] eqn:E; [apply HQ; eauto | apply begin_new_stream_nc, HQ].
Qed.

Lemma recv_ping_nc ack pl c : nc (recv_ping ack pl) fits c.
Proof. unfold recv_ping. apply wp_bind, cfsm_nc. intros t. destruct ack; exact eq_refl. Qed.
Lemma recv_goaway_nc l co d c : nc (recv_goaway l co d) fits c.
Proof. unfold recv_goaway. apply wp_bind, cfsm_nc. intros t. exact eq_refl. Qed.
Lemma priority_nc sid pr c : nc (evs <- recv_priority sid pr ;; ret ([], evs)) fits c.
Proof. apply nc_then; [apply never_crashes_snd, priority_frames_never_crash | intros; exact eq_refl]. Qed.
Lemma recv_rst_nc sid code c : nc (recv_rst_stream sid code) fits c.
Proof.
  unfold recv_rst_stream. apply wp_bind, cfsm_nc. intros t. apply wp_bind, wp_get.
  destruct (dget sid _) as [s|] eqn:Es; [|exact eq_refl].
  apply wp_bind, (with_stream_nc _ _ _ _ _ _ Es (stream_reset_nc code s)). intros; exact eq_refl.
Qed.
Lemma recv_alt_svc_nc sid o fl c : nc (recv_alt_svc sid o fl) fits c.
Proof.
  unfold recv_alt_svc. apply wp_bind, cfsm_nc. intros t. apply wp_bind, wp_get. destruct (negb (sid =? 0)).
  - destruct (dget sid _) as [s|] eqn:Es; [|exact eq_refl].
    apply wp_bind, (with_stream_nc _ _ _ _ _ _ Es (receive_alt_svc_nc o fl s)). intros; exact eq_refl.
  - destruct o; [|destruct (negb _)]; exact eq_refl.
Qed.

Lemma local_settings_acked_nc c : nc local_settings_acked (fun _ _ => True) c.
Proof.
  unfold local_settings_acked. apply nc_then; [rewrite lift_local_eq; apply sacknowledge_ncr | intros ch c0].
  apply nc_then; [destruct (changed_lookup _ ch) as [[o n]|]; [apply for_streams_ncr, inbound_iws_ncr | discriminate] | intros _ c1].
  apply nc_then; [destruct (changed_lookup _ ch) as [[o n]|]; discriminate | intros _ c2].
  apply nc_then; [destruct (changed_lookup _ ch) as [[o n]|]; discriminate | intros _ c3]. exact I.
Qed.

Lemma acknowledge_settings_nc c : nc acknowledge_settings (fun fs _ => fs = [FSettings true []]) c.
Proof.
  unfold acknowledge_settings. apply wp_bind, cfsm_nc. intros t. apply nc_then; [rewrite lift_remote_eq; apply sacknowledge_ncr | intros ch c0].
  apply nc_then; [destruct (changed_lookup _ ch) as [[o n]|]; [apply for_streams_ncr, flow_change_step_ncr | discriminate] | intros _ c1].
  apply nc_then; [destruct (changed_lookup _ ch) as [[o n]|]; discriminate | intros _ c2].
  apply nc_then; [destruct (changed_lookup _ ch) as [[o n]|]; discriminate | intros _ c3]. exact eq_refl.
Qed.

Lemma recv_settings_nc ack vals c : nc (recv_settings ack vals) fits c.
Proof.
  unfold recv_settings. apply wp_bind, cfsm_nc. intros t. destruct ack.
  - eapply wp_seq; [apply local_settings_acked_nc | intros; exact eq_refl].
  - apply nc_then; [rewrite lift_remote_eq; apply supdate_ncr | intros _ c0]. apply wp_bind, wp_get.
    eapply wp_seq; [apply acknowledge_settings_nc | intros fs c1 ->; exact eq_refl].
Qed.

Lemma recv_naked_continuation_nc sid c : nc (recv_naked_continuation sid) fits c.
Proof.
  unfold recv_naked_continuation. apply wp_bind, get_stream_by_id_nc. intros s Hs.
  apply wp_bind, (with_stream_nc _ _ _ _ _ _ Hs (receive_continuation_nc s)). intros _ _ [].
Qed.

Lemma recv_window_update_nc sid inc c : nc (recv_window_update sid inc) fits c.
Proof.
  unfold recv_window_update. apply wp_bind, cfsm_nc. intros t. destruct (negb (sid =? 0)).
  - pose proof (lookup_then_nc sid _ _ (cset_state c t) (receive_window_update_nc inc)) as H. unfold nc, wp in *. cbv beta.
    destruct ((get_stream_by_id sid ;;; _) _) as [c1 [a|e co i b|p]]; [exact H | destruct e; first [exact I | exact eq_refl] | exact H].
  - apply wp_bind, wp_get, wp_bind, nc_lift; [apply guard_ncr|]. intros w _. exact eq_refl.
Qed.

Lemma recv_data_nc sid len fclen es c : nc (recv_data sid len fclen es) fits c.
Proof.
  unfold recv_data. apply wp_bind, cfsm_nc. intros t. apply nc_then; [rewrite lift_cwm_eq; exact (window_consumed_ncr fclen _) | intros _ c0].
  pose proof (lookup_then_nc sid _ (fun _ => True) c0
                (fun s => wp_mono _ _ _ _ _ _ (receive_data_nc len fclen es s) (fun _ _ _ => I))) as H. unfold nc, wp in *. cbv beta.
  destruct ((get_stream_by_id sid ;;; _) _) as [c1 [a|e co i b|p]]; [exact eq_refl | | exact H].
  (* data on a closed stream: at most a WINDOW_UPDATE and a RST_STREAM *)
  destruct e; try exact I. destruct (process_bytes _ fclen) as [w' o]. destruct (wm_increment o); exact eq_refl.
Qed.

Lemma recv_push_promise_nc sid promised d c : nc (recv_push_promise sid promised d) fits c.
Proof.
  unfold recv_push_promise. apply wp_bind, wp_get. apply wp_bind. destruct (_ =? 0); [exact I|]. apply wp_ret.
  apply nc_then; [exact (never_crashes_snd _ _ (decode_headers_never_crashes d))|]. intros hs c1.
  apply wp_bind, cfsm_nc. intros t. apply wp_bind, wp_get.
  destruct (dget sid _) as [s|] eqn:Es.
  - destruct (g_recv_push_recursive sid); [exact I|].
    assert (H : nc (with_stream sid (receive_push_promise_in_band (c_cfg (cset_state c1 t)) promised hs)) (fun _ _ => True) (cset_state c1 t)).
    { apply (with_stream_nc _ _ _ _ _ _ Es (receive_push_promise_in_band_nc _ promised hs s)). intros; exact I. }
    unfold nc, wp in *. cbv beta.
    destruct (with_stream sid _ _) as [c2 [evs|e co i b|p]]; [| destruct e; first [exact I | exact eq_refl] | exact H].
    (* the promised stream is created, then found *)
    apply wp_bind, begin_new_stream_nc. intros c3 [sp Hsp].
    apply wp_bind, (with_stream_nc _ _ _ _ _ _ Hsp (remotely_pushed_nc hs sp)). intros; exact eq_refl.
  - destruct (stream_closed_by _ sid) as [[| | |]|]; first [exact I | exact eq_refl].
Qed.

Lemma recv_headers_nc sid es p d c : nc (recv_headers sid es p d) fits c.
Proof.
  unfold recv_headers. apply wp_bind, wp_get. apply nc_then.
  { destruct (dmem sid _); [discriminate|]. unfold open_inbound_streams, open_streams, bind, get. destruct (g_recv_headers_mcs _ _ _); discriminate. }
  intros _ c1. apply nc_then; [exact (never_crashes_snd _ _ (decode_headers_never_crashes d))|]. intros hs c2.
  apply wp_bind, cfsm_nc. intros t. apply wp_bind, wp_get. apply wp_bind. destruct (g_recv_headers_unpromised _ _ _ _); [exact I|]. apply wp_ret.
  (* the stream is there when its method is called *)
  apply wp_bind, get_or_create_nc. intros c3 [s Hs].
  apply wp_bind, (with_stream_nc _ _ _ _ _ _ Hs (receive_headers_nc _ hs es s)). intros evs s1 Hsh.
  destruct p as [pr|]; [|exact eq_refl].
  (* a priority block: the first event is indexed; receive_headers returned one *)
  apply nc_then; [apply never_crashes_snd, priority_frames_never_crash|]. intros pe c4. destruct evs; [destruct Hsh | exact eq_refl].
Qed.

(* [RTooLarge] and [RBadBody] stand for the frame buffer's own refusals; [dispatch (RBadBody 2)] IS a Python exception
   (hyperframe's InvalidPaddingError) until [recv_except] translates it *)
Definition yielded (f : rframe) : Prop := match f with RTooLarge | RBadBody _ => False | _ => True end.
Theorem dispatch_nc f c : yielded f -> nc (dispatch f) fits c.
Proof.
  intros Hy. destruct f; cbn [dispatch]; try contradiction.
  - apply recv_headers_nc.
  - apply recv_push_promise_nc.
  - apply recv_data_nc.
  - apply recv_settings_nc.
  - apply recv_window_update_nc.
  - apply recv_ping_nc.
  - apply recv_rst_nc.
  - apply priority_nc.
  - apply recv_goaway_nc.
  - apply recv_naked_continuation_nc.
  - apply recv_alt_svc_nc.
  - exact eq_refl.
Qed.

Theorem receive_frame_never_crashes f c c' r : yielded f -> mfs_inv c -> receive_frame f c = (c', r) -> ncr r.
Proof.
  intros Hy Hi H. pose proof (dispatch_nc f c Hy) as D. unfold nc, wp in D.
  destruct (dispatch f c) as [c1 r1] eqn:Ed. destruct (inv_dispatch f _ _ _ Hi Ed) as [Hm _].
  destruct (receive_frame_tail _ _ _ _ _ _ Ed H) as [(fs & evs & E & Hfs) | [_ [(e & co & sid & rst & ->) | (p & -> & ->)]]]; [|auto|destruct D].
  (* what is queued fits: the handler's frames are small, and so is a RST_STREAM *)
  assert (Hs : smallf fs = true) by (destruct Hfs as [-> | (sid & code & ->)]; [exact D | reflexivity]).
  rewrite (bind_ok_eq _ _ _ _ _ (prepare_small fs c1 Hm Hs)) in E. injection E as _ <-. auto.
Qed.

Lemma recv_except_ncr c1 res1 c2 r2 : mfs_inv c1 -> (forall p, res1 = Crash p -> p = ForeignError) ->
  recv_except c1 res1 = (c2, r2) -> ncr r2.
Proof.
  intros [Hm _] Hc H. assert (Hm8 : 8 <= c_max_out_frame c1) by (unfold P in Hm; cbn [fst] in Hm; lia).
  rewrite (recv_except_res _ _ _ _ Hm8 H). destruct res1 as [evs|e code sid rst|p]; [apply ncr_ok | apply ncr_err | rewrite (Hc p eq_refl); apply ncr_err].
Qed.

Lemma yield_is_yielded limit f blen : frame_buffer_check limit f blen = FBYield -> yielded f.
Proof.
  intros E. pose proof (frame_buffer_check_cases limit f blen) as H. rewrite E in H. exact H.
Qed.

Lemma recv_one_never_crashes fb c c1 r keep : mfs_inv c -> recv_one fb c = (c1, r, keep) -> ncr r.
Proof.
  intros Hi H. destruct (recv_one_cases _ _ _ _ _ H) as [(c0 & r0 & Ec & Er & Ee) | (r0 & _ & Hf & Ee)].
  - refine (recv_except_ncr _ _ _ _ (inv_receive_frame _ _ _ _ Hi Er) _ Ee). intros p Hp.
    destruct (receive_frame_never_crashes _ _ _ _ (yield_is_yielded _ _ _ Ec) Hi Er p Hp).
  - exact (recv_except_ncr _ _ _ _ Hi Hf Ee).
Qed.

Theorem recv_core_never_crashes fs : forall acc c c' r rem, mfs_inv c -> recv_core fs acc c = (c', r, rem) -> ncr r.
Proof.
  intros acc c c' r rem Hi H.
  refine (proj1 (recv_core_rule (fun _ => True) mfs_inv (fun _ r => ncr r) _ _ fs acc c c' r rem _ Hi H)); auto.
  - intros fb c0 c1 r1 keep _ Hi0 E.
    destruct (is_ok r1); [exact (upd_recv_one mfs_inv _ mfs_upd _ _ _ _ _ I Hi0 E) | exact (recv_one_never_crashes _ _ _ _ _ Hi0 E)].
  - apply Forall_True.
Qed.

Theorem api_receive_never_crashes fs c c' r : mfs_inv c -> api_receive fs c = (c', r) -> ncr r.
Proof.
  intros Hi H. unfold api_receive in H. destruct (recv_core (c_inbuf c ++ fs) [] c) as [[c1 r1] rem] eqn:E. injection H as _ <-.
  exact (recv_core_never_crashes _ _ _ _ _ _ Hi E).
Qed.

(* THE statement of C17 on the model: after ANY history of calls and received frames, receive_data on ANY list of frames
   (valid, malformed, refused by the frame buffer, with any HPACK outcome) returns events or raises an h2 exception *)
Theorem receive_data_only_raises_h2_exceptions cfg os fs :
  let c := run (conn_new cfg) os in forall p, snd (api_receive fs c) <> Crash p.
Proof.
  intros c p. pose proof (peer_frame_size_limit_is_never_below_the_minimum os _ (mfs_init cfg)) as Hi. fold c in Hi.
  destruct (api_receive fs c) as [c' r] eqn:E. exact (api_receive_never_crashes fs c c' r Hi E p).
Qed.

(* [safe], [safeF]: the same as predicates on computations from states that satisfy the frame-size invariant, with their
   rules; the proofs above do not go through them *)
Definition safe {A} (m : CM A) : Prop := forall c c' r, mfs_inv c -> m c = (c', r) -> ncr r.
Definition safeF (m : CM (list frame * list event)) : Prop :=
  forall c c' r, mfs_inv c -> m c = (c', r) -> ncr r /\ (forall fr ev, r = Ok (fr, ev) -> smallf fr = true).
Lemma safeF_of_nc m : (forall c, nc m fits c) -> safeF m.
Proof. intros H c c' r _ E. split; [exact (nc_run _ _ _ _ _ (H c) E) | intros fr ev ->; exact (wp_run _ _ _ _ _ _ _ (H c) E)]. Qed.
Theorem safeF_dispatch f : yielded f -> safeF (dispatch f).
Proof. intros Hy. apply safeF_of_nc. intros c. exact (dispatch_nc f c Hy). Qed.

Lemma safeF_bind {A} (m : CM A) (k : A -> CM (list frame * list event)) :
  pres_inv mfs_inv m -> safe m -> (forall a, safeF (k a)) -> safeF (bind m k).
Proof.
  intros Hp Hm Hk c c' r Hi H. unfold bind in H. destruct (m c) as [c1 r1] eqn:E.
  pose proof (Hm _ _ _ Hi E) as N. pose proof (Hp _ _ _ Hi E) as I1.
  destruct r1 as [a|e co i b|p]; [exact (Hk a _ _ _ I1 H) | injection H as _ <-; split; [auto|discriminate] | exfalso; exact (N p eq_refl)].
Qed.
Lemma safe_fail {A} e co i b : safe (@fail conn A e co i b). Proof. intros c c' r _. exact (nc_fail e co i b c c' r). Qed.
Lemma safeF_fail e co i b : safeF (fail e co i b). Proof. intros c c' r _ H. injection H as _ <-. split; [auto|discriminate]. Qed.
Lemma safe_get : safe (@get conn). Proof. intros c c' r _ H. injection H as _ <-. auto. Qed.
Lemma safeF_lift_err : safeF (lift_res perr). Proof. exact (safeF_fail _ _ _ _). Qed.
Lemma safe_of_safeF m : safeF m -> safe m. Proof. intros H c c' r Hi E. exact (proj1 (H _ _ _ Hi E)). Qed.
Lemma safe_get_stream_by_id sid : safe (get_stream_by_id sid).
Proof. intros c c' r _. exact (nc_run _ _ _ _ _ (get_stream_by_id_nc sid c (fun _ _ => True) (fun _ _ => I))). Qed.
Lemma reject_crash_is_foreign limit f blen rj c c1 p :
  frame_buffer_check limit f blen = FBReject rj -> (dispatch rj ;;; ret ([] : list event)) c = (c1, Crash p) -> p = ForeignError.
Proof.
  intros Ec Er. destruct (rejected _ _ _ _ c Ec) as (r0 & Er0 & _ & Hf). apply Hf.
  rewrite Er0 in Er. injection Er as _ ->. reflexivity.
Qed.
